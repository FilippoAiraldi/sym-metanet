(* C02 — vehicles are conserved by every step, network-wide and at every node.
   conservation (specs/C02_spec.v): for every well-formed graph accepted by the validation
   model, without clamping:
   - node_balance n: the flows entering the first segments of the links leaving n (the very
     values the density update uses, Spec.sinflow - by C01 the implementation model's q_up[0])
     sum to the last-segment flows of the links entering n plus the flow of n's origin;
   - network_balance: sum over all segments of (rho+ - rho) x lanes x L, plus the queue changes,
     equals T x (demand at queued origins + flow admitted by ideal origins - last-segment flows
     of the links entering destinations).
   No division by a possibly-zero total flow is involved; the side conditions are lanes x L <> 0
   and a non-zero turn-rate sum. *)
From Coq Require Import Reals List.
From SM.specs Require Import C02_spec.
From SM Require Import NumR Engine.
From SM.proofs Require Import ModelCorollaries StepSpec.

Theorem C02_conservation : conservation.
Proof. exact conservation_proof. Qed.
Print Assumptions C02_conservation.

(* on the model: the step of a valid network returns the values the balances are stated on (regenerated engines) *)
Theorem C02_model_conserves_numpy : model_conserves (@np_engine R NumR).
Proof. exact (model_conserves_proof _ np_step_is_METANET). Qed.
Print Assumptions C02_model_conserves_numpy.
Theorem C02_model_conserves_casadi : model_conserves (@cs_engine R NumR).
Proof. exact (model_conserves_proof _ cs_step_is_METANET). Qed.
Print Assumptions C02_model_conserves_casadi.
