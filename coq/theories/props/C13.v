(* C13 — the selected engine is the default; an explicit engine is always honoured.
   On EngineSel.v (hand-written model of use / get_current_engine / the module-level selection,
   tied on every run by selection histories with recording engines):
   use_selects: use(name) of an available name instantiates that class, use(instance) takes the
     instance; either becomes the engine returned by get_current_engine;
   unknown_refused: anything else gives the engine-not-found error and leaves the selection alone;
   step_keeps_selection: a step never writes the selection, and without an explicit engine the
     selected one is used;
   forwarding_sound + C13_all_call_sites_forward: on the call graph REGENERATED from blocks/*.py and
     network.py on this run (every call of an engine-taking method inside a function that holds an
     engine), every call site passes its local engine on, hence along every call chain from
     Network.step(engine=e) the callee - and so every primitive - sees e, whatever is selected
     (explicit_engine_honoured).  The translator also fails closed on any rebinding of `engine`, any
     get_current_engine() outside the `if engine is None` guard and any use(...) / sym_metanet.engine
     access in those files. *)
From Coq Require Import List String Bool.
From SM Require Import EngineSel.
From SM.gen Require Import Tables.
From SM.specs Require Import C13_spec.

Theorem C13_use_selects : forall fw, use_selects fw.
Proof.
  intros fw s. split.
  - intros n Hn. unfold sel_step. rewrite Hn. eexists. split; [reflexivity|]. split; reflexivity.
  - intros e. split; reflexivity.
Qed.
Print Assumptions C13_use_selects.
Theorem C13_unknown_refused : forall fw, unknown_refused fw.
Proof. intros fw s. split; [intros n Hn; unfold sel_step; rewrite Hn; reflexivity|reflexivity]. Qed.
Print Assumptions C13_unknown_refused.
Theorem C13_step_keeps_selection : forall fw, step_keeps_selection fw.
Proof. intros fw s ex. split; [reflexivity|intros ->; reflexivity]. Qed.
Print Assumptions C13_step_keeps_selection.
Theorem C13_forwarding_sound : forwarding_sound.
Proof.
  intros calls path E e Hall Hincl. unfold all_fwd in Hall. rewrite forallb_forall in Hall.
  induction path as [|c path IH]; [reflexivity|]. simpl.
  rewrite (Hall c (Hincl c (or_introl eq_refl))). apply IH. intros x Hx. apply Hincl. right. exact Hx.
Qed.
Print Assumptions C13_forwarding_sound.
Theorem C13_all_call_sites_forward : all_fwd gen_calls = true.
Proof. vm_compute. reflexivity. Qed.
Print Assumptions C13_all_call_sites_forward.
Theorem C13_explicit_engine_honoured : explicit_engine_honoured.
Proof. intros s e. reflexivity. Qed.
Print Assumptions C13_explicit_engine_honoured.
