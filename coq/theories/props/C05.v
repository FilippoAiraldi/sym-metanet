(* C05 — the extra flow outputs are the flows the state update actually used.
   For every numeric structure and both regenerated engines:
   link_flow_is_rho_v_lanes: each reported link flow entry is rho x v x lanes of the input segment;
   origin_flow_is_used_by_queue: the reported origin flow q is the value the queue update consumes
     (next queue = queue law (w, d, q, T), clamped only if requested);
   origin_flow_is_used_by_node: and the value the node adds to the inflow of the link it feeds, in
     each of the three in-degree cases (C02 proves the resulting balance);
   flows_from_step_state: the flows are recomputed from the same init-clamped symbols the step
     used, listed in link order then origin order.  All compactness levels share these entries
     (ToFunction.flow_outputs concatenates them). *)
From Coq Require Import List Lia.
From SM Require Import Num Graph Engine Expr Types Blocks ToFunction.
From SM.gen Require Import EnginesNp.
From SM.specs Require Import C05_spec.
From SM.proofs Require Import VecR.

Theorem C05_link_flow_numpy : forall A (NA : Num A), link_flow_is_rho_v_lanes (@np_engine A NA).
Proof.
  intros A NA U st m i d Hr Hv. unfold link_flow. cbn [e_flow np_engine]. unfold Np.links_get_flow.
  rewrite nth_vs by (rewrite vv_length; lia). rewrite nth_vv by assumption. reflexivity.
Qed.
Print Assumptions C05_link_flow_numpy.
(* these CasADi-derived primitives are the same terms as the NumPy-derived ones (proofs/EnginesEq.v says which are not),
   so a theorem about the latter is, by conversion, the theorem about the former *)
Theorem C05_link_flow_casadi : forall A (NA : Num A), link_flow_is_rho_v_lanes (@cs_engine A NA).
Proof.
  exact C05_link_flow_numpy.
Qed.
Print Assumptions C05_link_flow_casadi.
Theorem C05_origin_flow_used_by_queue : forall A (NA : Num A) (E : engine A), origin_flow_is_used_by_queue E.
Proof.
  intros A NA E U P g st opts o q Hq. unfold origin_step. rewrite Hq.
  destruct (is_queued (okind_of U o)); reflexivity.
Qed.
Print Assumptions C05_origin_flow_used_by_queue.
Theorem C05_origin_flow_used_by_node : forall A (NA : Num A) (E : engine A), origin_flow_is_used_by_node E.
Proof.
  intros A NA E U P g st n m o q v_o Ho Hq Hv. unfold node_up_speed_flow. rewrite Ho, Hv, Hq. cbn [bind].
  destruct (in_links g n) as [|e [|e2 l]]; reflexivity.
Qed.
Print Assumptions C05_origin_flow_used_by_node.
Theorem C05_flows_from_step_state : forall E : engine expr, flows_from_step_state E.
Proof.
  intros E nm U P g opts. unfold link_flow_entries, st1, st0. rewrite !map_map. simpl.
  repeat split; reflexivity.
Qed.
Print Assumptions C05_flows_from_step_state.
