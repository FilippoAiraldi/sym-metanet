(* C03 — the compiled CasADi function computes the same step as the NumPy engine.
   compiled_is_numpy_step (specs/C03_spec.v): for EVERY network (accepted by validation or not:
   Python failure points agree as error values too), option set, naming, compactness level and
   numeric argument assignment env, the state results of the ToFunction model over the
   CasADi-derived engine, evaluated at env, are the (regrouped) results of network_step over the
   NumPy-derived engine from the same numbers.  Proof: eval_step (the Paramcoq abstraction theorem
   of the polymorphic model instantiated with "the tree denotes the real") + C15 (the two
   regenerated engines are equal).  The model has one symbolic type: that SX and MX agree is
   established by the dynamic runs (both compared with the NumPy step at every level). *)
From SM.specs Require Import C03_spec.
From SM.proofs Require Import Compiled.

Theorem C03_compiled_is_numpy_step : compiled_is_numpy_step.
Proof. exact compiled_is_numpy_step_proof. Qed.
Print Assumptions C03_compiled_is_numpy_step.
