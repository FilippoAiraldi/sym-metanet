(* C01 — one-step dynamics equal the METANET equations on every valid network.
   step_is_METANET E (specs/C01_spec.v): for EVERY universe, parameter set, well-formed graph
   accepted by the validation model, and state of the right shapes, network_step with no
   positivity option returns, for every link segment, Spec.spec_rho_next / spec_v_next
   (eqs. 3.1-3.11, node rules 3.2.2 with turn-rate split, flow-weighted upstream speed,
   downstream density from FIRST segments or the destination law, merging, lane-drop and
   speed-limit terms) and for every queued origin Spec.spec_w_next - any in/out degree,
   cycles, self-loops, 1..N segments.  The engines are the definitions regenerated from
   engines/numpy.py and engines/casadi.py. *)
From Coq Require Import Reals List.
From SM Require Import NumR Engine.
From SM.specs Require Import C01_spec.
From SM.proofs Require Import StepSpec StepExample.

Theorem C01_numpy_step_is_METANET : step_is_METANET (@np_engine R NumR).
Proof. exact np_step_is_METANET. Qed.
Print Assumptions C01_numpy_step_is_METANET.

Theorem C01_casadi_step_is_METANET : step_is_METANET (@cs_engine R NumR).
Proof. exact cs_step_is_METANET. Qed.
Print Assumptions C01_casadi_step_is_METANET.

(* the hypotheses are satisfiable: a 2x2 junction with a ramp, a VSL link and a 1-segment link *)
Theorem C01_hypotheses_satisfiable : example_meets_hypotheses.
Proof. exact example_ok. Qed.
Print Assumptions C01_hypotheses_satisfiable.
