(* Pin_selection.v - pinned source text (nothing else here) *)
From SM.specs Require Import Pin_selection_spec.
From SM.gen Require Import Pin_selection.

Theorem selection_source_is_the_text_the_model_was_written_from : selection_source_as_modelled pin_selection.
Proof. reflexivity. Qed.
Print Assumptions selection_source_is_the_text_the_model_was_written_from.
