(* Glue.v - the tie of the hand-written element-layer model to the Python glue, as theorems (nothing else here) *)
From SM.specs Require Import Glue_spec.
From SM.proofs Require Import BlocksTie.

Theorem element_layer_model_is_the_regenerated_glue : element_layer_is_the_regenerated_glue.
Proof. exact (@generated_step_is_the_model). Qed.
Print Assumptions element_layer_model_is_the_regenerated_glue.

Theorem regenerated_glue_yields_the_model_value : regenerated_glue_gives_the_model_value.
Proof. exact (@generated_step_value). Qed.
Print Assumptions regenerated_glue_yields_the_model_value.

Theorem element_level_parameter_defaults_as_documented : element_level_defaults_as_documented.
Proof. reflexivity. Qed.
Print Assumptions element_level_parameter_defaults_as_documented.

