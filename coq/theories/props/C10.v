(* C10 — each next state depends only on its own segment and its model neighbours.
   locality (specs/C10_spec.v): for ANY graph, any two states agreeing on
   nb_rho e i  (own segment; the segment upstream, or for the first segment the last segments of
                the links entering the upstream node and that node's origin data)
   nb_v e i    (own segment; upstream speed data; the density immediately downstream: next
                segment, or first segments of the leaving links, or the destination's scenario;
                the segment's own speed limit)
   origin_eq   (own queue, demand, control and the first segment of its link)
   prescribe the same next density / speed / queue; the values are the ones C01 proves the
   implementation model to compute.  Nothing else in the network is constrained. *)
From Coq Require Import Reals List.
From SM Require Import NumR.
From SM.specs Require Import C10_spec.
From SM Require Import Engine.
From SM.proofs Require Import SpecPerm ModelCorollaries StepSpec.

Theorem C10_locality : forall U P g st st', locality U P g st st'.
Proof. exact locality_proof. Qed.
Print Assumptions C10_locality.

(* on the model: two steps of a valid network from states agreeing on a segment's neighbourhood return the same
   value for it (regenerated engines) *)
Theorem C10_model_locality_numpy : model_locality (@np_engine R NumR).
Proof. exact (model_locality_proof _ np_step_is_METANET). Qed.
Print Assumptions C10_model_locality_numpy.
Theorem C10_model_locality_casadi : model_locality (@cs_engine R NumR).
Proof. exact (model_locality_proof _ cs_step_is_METANET). Qed.
Print Assumptions C10_model_locality_casadi.
