(* Pin_compile.v - pinned source text (nothing else here) *)
From SM.specs Require Import Pin_compile_spec.
From SM.gen Require Import Pin_compile.

Theorem compile_source_is_the_text_the_model_was_written_from : compile_source_as_modelled pin_compile.
Proof. reflexivity. Qed.
Print Assumptions compile_source_is_the_text_the_model_was_written_from.
