(* C07 — every network accepted by validation can be stepped and compiled.  PARTIAL (see below).
   steps_with_all_options (both regenerated engines, over the reals): for every well-formed graph
     accepted by the validation model, every state of the right shapes and EVERY combination of the
     six positivity options, network_step returns a result - none of the modelled Python failure
     points (assert len(links) == 1 of an origin / destination, first of an empty view, missing
     origin at a source node, missing key, shape mismatch) is reachable - with one entry per link in
     the network's order and one per origin, and every next state has the length of its state;
   compiles_at_every_level: the ToFunction model then returns a function at compactness 0, 1, 2,
     with and without the extra flow outputs, for every option set;
   mainstream_defined / ramp_defined (partial reals: None = nan/inf born from finite input): the
     origin laws of both engines are defined on the whole admissible domain including zero speed
     and zero density - the log-ratio guard keeps log and power in their domains.
   step_commutes_with_injection / every_output_finite (specs/C07fin_spec.v; both engines): the finiteness
     clause for a WHOLE STEP.  The model run on the partial reals from finite admissible inputs -
     non-negative densities with exact zeros allowed, any finite speeds and queues (for a mainstream origin
     a non-negative speed limit and first speed, zero included), positive L, lanes, rho_crit, a, tau, kappa, T,
     rho_crit < rho_max for ramps, excluding only a merge with zero total inflow, a bifurcation with zero total
     first-segment density and turn rates summing to zero - is, entry by entry and for every option set, the
     injection of the run on the reals: no nan / inf is born anywhere in the step.  finite_hypotheses_satisfiable:
     a merge with an empty entering link at standstill and a mainstream origin with zero speed limit meets them.
   Partial: "succeeds" covers the failure points the model makes explicit; other Python exceptions
   (library signature mismatch, glue type errors), the NumPy/CasADi shape rules for 0-d / (1,) /
   (n,1) values and IEEE overflow / rounding (the partial reals are exact) are decided by the
   dynamic runs only (every accepted graph - also arbitrary graphs filtered by the implementation's
   own is_valid - stepped on NumPy with own variables / user arrays of three scalar shapes and on
   CasADi SX/MX, compiled at all levels, at boundary states). *)
From Coq Require Import Reals.
From SM Require Import NumR NumPR Engine.
From SM.gen Require Import EnginesNp EnginesCs.
From SM.specs Require Import C07_spec C07fin_spec.
From SM.proofs Require Import EnginesEq Steppable Finite.

Theorem C07_numpy_steps_with_all_options : steps_with_all_options (@np_engine R NumR).
Proof. exact np_steps_with_all_options. Qed.
Print Assumptions C07_numpy_steps_with_all_options.
Theorem C07_casadi_steps_with_all_options : steps_with_all_options (@cs_engine R NumR).
Proof. exact cs_steps_with_all_options. Qed.
Print Assumptions C07_casadi_steps_with_all_options.
Theorem C07_compiles_at_every_level : compiles_at_every_level.
Proof. exact compiles_at_every_level_proof. Qed.
Print Assumptions C07_compiles_at_every_level.
Theorem C07_mainstream_defined_numpy : mainstream_defined (@Np.origins_get_mainstream_flow PR NumPR).
Proof. exact np_mainstream_defined. Qed.
Print Assumptions C07_mainstream_defined_numpy.
(* these CasADi-derived primitives are the same terms as the NumPy-derived ones (proofs/EnginesEq.v says which are not),
   so a theorem about the latter is, by conversion, the theorem about the former *)
Theorem C07_mainstream_defined_casadi : mainstream_defined (@Cs.origins_get_mainstream_flow PR NumPR).
Proof. exact np_mainstream_defined. Qed.
Print Assumptions C07_mainstream_defined_casadi.
Theorem C07_ramp_defined_numpy : ramp_defined (@Np.origins_get_ramp_flow PR NumPR).
Proof. exact np_ramp_defined. Qed.
Print Assumptions C07_ramp_defined_numpy.
Theorem C07_ramp_defined_casadi : ramp_defined (@Cs.origins_get_ramp_flow PR NumPR).
Proof. exact np_ramp_defined. Qed.
Print Assumptions C07_ramp_defined_casadi.

(* finiteness of a whole step *)
Theorem C07_step_commutes_with_injection_numpy :
  step_commutes_with_injection (@np_engine PR NumPR) (@np_engine R NumR).
Proof. exact np_step_commutes_with_injection. Qed.
Print Assumptions C07_step_commutes_with_injection_numpy.
Theorem C07_step_commutes_with_injection_casadi :
  step_commutes_with_injection (@cs_engine PR NumPR) (@cs_engine R NumR).
Proof. rewrite !cs_engine_eq_np. exact np_step_commutes_with_injection. Qed.
Print Assumptions C07_step_commutes_with_injection_casadi.
Theorem C07_every_output_finite_numpy : every_output_finite (@np_engine PR NumPR) (@np_engine R NumR).
Proof. exact np_every_output_finite. Qed.
Print Assumptions C07_every_output_finite_numpy.
Theorem C07_every_output_finite_casadi : every_output_finite (@cs_engine PR NumPR) (@cs_engine R NumR).
Proof. rewrite !cs_engine_eq_np. exact np_every_output_finite. Qed.
Print Assumptions C07_every_output_finite_casadi.
Theorem C07_finite_hypotheses_satisfiable : finite_example_meets_hypotheses.
Proof. exact finite_example_ok. Qed.
Print Assumptions C07_finite_hypotheses_satisfiable.
(* the usual reading: a non-negative state (left as it is by the positive_init_* clamps), every option set *)
Theorem C07_every_output_finite_from_nonnegative_numpy :
  every_output_finite_from_nonnegative (@np_engine PR NumPR) (@np_engine R NumR).
Proof. exact np_every_output_finite_from_nonnegative. Qed.
Print Assumptions C07_every_output_finite_from_nonnegative_numpy.
Theorem C07_every_output_finite_from_nonnegative_casadi :
  every_output_finite_from_nonnegative (@cs_engine PR NumPR) (@cs_engine R NumR).
Proof. rewrite !cs_engine_eq_np. exact np_every_output_finite_from_nonnegative. Qed.
Print Assumptions C07_every_output_finite_from_nonnegative_casadi.
