(* Pin_cache.v - pinned source text (nothing else here) *)
From SM.specs Require Import Pin_cache_spec.
From SM.gen Require Import Pin_cache.

Theorem cache_source_is_the_text_the_model_was_written_from : cache_source_as_modelled pin_cache.
Proof. reflexivity. Qed.
Print Assumptions cache_source_is_the_text_the_model_was_written_from.
