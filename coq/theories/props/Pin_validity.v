(* Pin_validity.v - pinned source text (nothing else here) *)
From SM.specs Require Import Pin_validity_spec.
From SM.gen Require Import Pin_validity.

Theorem validity_source_is_the_text_the_model_was_written_from : validity_source_as_modelled pin_validity.
Proof. reflexivity. Qed.
Print Assumptions validity_source_is_the_text_the_model_was_written_from.
