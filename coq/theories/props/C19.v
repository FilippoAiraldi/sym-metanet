(* C19 — a function is only produced for a fully initialised and stepped network.
   On Lifecycle.v (hand-written model of the variable slots across init_vars / Network.step /
   element.step / construction calls / to_function with its readiness scan and CasADi's
   free-symbol rule; symbols tracked by generation; tied on every run by lifecycle histories on SX
   and MX: outcome class and argument elements after every operation):
   compile_only_when_ready: to_function either raises the runtime error or returns a function, and
     then every member with states/actions/disturbances is initialised, every member with states
     has next states, and every symbol a next state reads is the current symbol of a member (no free
     symbol; nothing re-initialised, removed or added-uninitialised since);
   init_resets_next: initialising an element discards its next states, so "has next states" means
     "stepped after its last initialisation" - elements added or re-initialised after the last step
     block compilation;  step_records_current: a step records the generations it read;
   generations_never_reused: for every history, every generation in use is older than the counter,
     so a re-initialised element never regains symbols an old next state mentions. *)
From Coq Require Import List.
From SM Require Import Lifecycle.
From SM.specs Require Import C19_spec SourceFacts_spec.
From SM.proofs Require Import LifecycleProofs.

Theorem C19_compile_only_when_ready : forall n, compile_only_when_ready n.
Proof. exact compile_only_when_ready_proof. Qed.
Print Assumptions C19_compile_only_when_ready.
Theorem C19_init_resets_next : forall n, init_resets_next n.
Proof. exact init_resets_next_proof. Qed.
Print Assumptions C19_init_resets_next.
Theorem C19_step_records_current : forall n, step_records_current n.
Proof. exact step_records_current_proof. Qed.
Print Assumptions C19_step_records_current.
Theorem C19_generations_never_reused : forall n, generations_never_reused n.
Proof. exact generations_never_reused_proof. Qed.
Print Assumptions C19_generations_never_reused.

(* the two steps of Lifecycle.v that carry the property, read off the source on every run (translator/facts.py):
   init_vars of every element class with states resets next_states (own statement or unconditional super()),
   and ElementWithVars.step overwrites the next state of every state name unconditionally *)
Theorem C19_init_resets_in_source : init_resets_in_source.
Proof. vm_compute. reflexivity. Qed.
Print Assumptions C19_init_resets_in_source.
Theorem C19_step_overwrites_in_source : step_overwrites_in_source.
Proof. vm_compute. reflexivity. Qed.
Print Assumptions C19_step_overwrites_in_source.
Theorem C19_readiness_scan_as_modelled : readiness_scan_as_modelled.
Proof. vm_compute. reflexivity. Qed.
Print Assumptions C19_readiness_scan_as_modelled.
