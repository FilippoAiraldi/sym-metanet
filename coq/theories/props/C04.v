(* C04 — function arguments/results follow the network's element order at every level.
   Proved on ToFunction.v (hand-written model of Engine.to_function, tied on every run by the
   compile correspondence: names, sizes and numeric values of the real function against the
   model's printed arguments and result trees, SX and MX, levels 0/1/2):
   results_closed: every symbol occurring in any result is one of the arguments (nothing is left
     free) - the Paramcoq abstraction theorem instantiated with "all symbols of the tree are
     arguments";
   arguments_exact: at every level the arguments are exactly the declared state, action and
     disturbance symbols of the network's elements and the declared parameters;
   levels_are_regroupings: the results at the three levels are the per-element / per-variable-name
     / single-vector regroupings of one and the same step result.
   positional_successor: the state arguments and the results carry the same (element, variable)
     labels with the same sizes in the same order (links in Network.links order with rho then v, then
     queued origins with w), at level 0; the same stable regrouping by variable name on both sides
     at level 1 (result names with a trailing "+"); one vector of equal size at level 2 - so result k
     is the successor of state argument k and can be fed back. *)
From Coq Require Import Reals List Permutation.
From SM.specs Require Import C04_spec SourceFacts_spec.
From SM Require Import Engine.
From SM.proofs Require Import Regroup Closed Compiled Positional SourceFactsLevels.

Theorem C04_results_closed : results_closed.
Proof.
  intros nm U P g opts c more ps outs HP Ht. apply closed_named.
  exact (tf_outputs_closed cs_engine cs_engine nm U P g opts c more ps outs (cs_engine_cl _) HP Ht).
Qed.
Print Assumptions C04_results_closed.
Theorem C04_arguments_exact : arguments_exact.
Proof.
  intros nm U g c ps x. rewrite <- net_idents_spec, <- in_app_iff.
  split; apply Permutation_in; [|symmetry]; apply tf_inputs_flat.
Qed.
Print Assumptions C04_arguments_exact.
Theorem C04_levels_are_regroupings : levels_are_regroupings.
Proof. intros env nm U P g opts. eexists. intros c. apply compiled_is_numpy_step_proof. Qed.
Print Assumptions C04_levels_are_regroupings.
Theorem C04_positional_successor : positional_successor.
Proof. exact positional_successor_proof. Qed.
Print Assumptions C04_positional_successor.

(* the compactness argument: every compile helper of engines/casadi.py (its tests on `compact` are read off the
   source on every run, translator/facts.py) puts EVERY integer into the documented class (<= 0, == 1, > 1), which
   is the level 0 | 1 | _ the model computes with *)
Theorem C04_helpers_use_documented_levels : helpers_use_documented_levels.
Proof. exact helpers_use_documented_levels_proof. Qed.
Print Assumptions C04_helpers_use_documented_levels.
Theorem C04_model_level_is_documented : model_level_is_documented.
Proof. exact model_level_is_documented_proof. Qed.
Print Assumptions C04_model_level_is_documented.
