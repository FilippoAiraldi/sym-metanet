(* C12 — stepping is a pure, repeatable function of the supplied values.  PARTIAL (see below).
   (a) on Lifecycle.v: step_forgets_history / step_shape_forgets_history - Network.step
       re-initialises every member and recomputes every next state: after it, the variable slots of
       the members do not depend on anything that was initialised, stepped or compiled before
       (with numbers: equal slots; with engine symbols: equal up to the numbering of the fresh
       symbols).  Element parameters are not part of any slot the model writes.
   (b) no_inplace_write_on_caller_data: in the list, REGENERATED on this run from
       engines/numpy.py, blocks/*.py and network.py, of every in-place statement (augmented
       assignment, store into a subscript, del of a subscript), every target is a value the function
       created itself or one of the element's own variable dictionaries; none may alias caller data.
   Partial: which expressions allocate (NumPy functions, arithmetic, constant-index elements) is the
   translator's classification rule - trusted, not verified; purity of the real runs (caller arrays
   write-protected and hashed, dictionaries and element parameters snapshotted, repeated steps
   compared bit for bit after unrelated steps, compilations, engines and options) is the dynamic half. *)
From Coq Require Import List.
From SM Require Import Lifecycle.
From SM.specs Require Import C12_spec.
From SM.proofs Require Import Purity.

Theorem C12_step_forgets_history : forall n, step_forgets_history n.
Proof. exact step_forgets_history_proof. Qed.
Print Assumptions C12_step_forgets_history.
Theorem C12_step_shape_forgets_history : forall n, step_shape_forgets_history n.
Proof. exact step_shape_forgets_history_proof. Qed.
Print Assumptions C12_step_shape_forgets_history.
Theorem C12_no_inplace_write_on_caller_data : no_inplace_write_on_caller_data.
Proof. vm_compute. reflexivity. Qed.
Print Assumptions C12_no_inplace_write_on_caller_data.
