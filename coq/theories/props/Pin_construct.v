(* Pin_construct.v - pinned source text (nothing else here) *)
From SM.specs Require Import Pin_construct_spec.
From SM.gen Require Import Pin_construct.

Theorem construct_source_is_the_text_the_model_was_written_from : construct_source_as_modelled pin_construct.
Proof. reflexivity. Qed.
Print Assumptions construct_source_is_the_text_the_model_was_written_from.
