(* Lookups.v - the pinned source of the derived look-ups and link views (nothing else here) *)
From SM.specs Require Import Lookups_spec.
From SM.gen Require Import Lookups.

Theorem lookup_and_view_bodies_as_modelled : lookups_as_modelled lookup_bodies.
Proof. reflexivity. Qed.
Print Assumptions lookup_and_view_bodies_as_modelled.
