(* Pin_stepping.v - pinned source text (nothing else here) *)
From SM.specs Require Import Pin_stepping_spec.
From SM.gen Require Import Pin_stepping.

Theorem stepping_source_is_the_text_the_model_was_written_from : stepping_source_as_modelled pin_stepping.
Proof. reflexivity. Qed.
Print Assumptions stepping_source_is_the_text_the_model_was_written_from.
