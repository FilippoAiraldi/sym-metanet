(* C06 — validation accepts a network exactly when the nine documented conditions hold.
   On Validity.v (hand-written model of Network.is_valid: the four passes in the code's order,
   incl. the iteration over the origins / destinations DICTS, where a shared object keeps only its
   last node; tied on every run by the validity correspondence: verdict, "raises", message kinds
   on exhaustive small graphs and random graphs):
   validation_is_nine_conditions: validb = true iff the nine conditions of specs/C06_spec.v hold
     (declarative statements per node on the graph, no dictionaries);
   verdict_consistent: raises=True raises exactly when the verdict is invalid, an invalid verdict
     comes with at least one message, and the raised message is the first message. *)
From Coq Require Import List.
From SM.specs Require Import C06_spec.
From SM.proofs Require Import ValidSpecProof.

Theorem C06_validation_is_nine_conditions : validation_is_nine_conditions.
Proof. exact validation_is_nine_conditions_proof. Qed.
Print Assumptions C06_validation_is_nine_conditions.
Theorem C06_verdict_consistent : verdict_consistent.
Proof. exact verdict_consistent_proof. Qed.
Print Assumptions C06_verdict_consistent.

(* Network.is_valid as read off network.py on every run (translator/facts.py): nine reporting sites, each followed by
   the raise under `raises`, no other raise, verdict = `not msgs` *)
From SM.specs Require Import SourceFacts_spec.
Theorem C06_validation_reports_and_raises_together : validation_reports_and_raises_together.
Proof. repeat split; vm_compute; reflexivity. Qed.
Print Assumptions C06_validation_reports_and_raises_together.
