(* GlueC01.v - C01 stated on the regenerated glue and the regenerated engines *)
From Coq Require Import Reals.
From SM Require Import NumR Engine.
From SM.specs Require Import C01_spec Glue_spec.
From SM.proofs Require Import StepSpec StepExample BlocksTie.

Theorem C01_regenerated_glue_on_numpy_engine_is_METANET : regenerated_step_is_METANET (@np_engine R NumR).
Proof. apply regenerated_from_model, np_step_is_METANET. Qed.
Print Assumptions C01_regenerated_glue_on_numpy_engine_is_METANET.

Theorem C01_regenerated_glue_on_casadi_engine_is_METANET : regenerated_step_is_METANET (@cs_engine R NumR).
Proof. apply regenerated_from_model, cs_step_is_METANET. Qed.
Print Assumptions C01_regenerated_glue_on_casadi_engine_is_METANET.

Theorem C01_regenerated_glue_steps_the_example :
  exists out, gen_network_step (@np_engine R NumR) exU' exP exG Types.no_options exSt = Blocks.Ok out.
Proof.
  destruct example_ok as (Hwf & Hv & Hl & Ht & Hc).
  destruct (C01_regenerated_glue_on_numpy_engine_is_METANET exU' exP exG exSt Hwf Hv Hl Ht Hc) as (out & H & _).
  exists out. exact H.
Qed.
Print Assumptions C01_regenerated_glue_steps_the_example.
