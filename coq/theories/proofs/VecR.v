(* VecR.v — lemmas on the vector combinators of Num.v (any Num) and on the real instance; finite sums.
   The file loads Spec.v (for ssum) and with it the instance NumExpr: a statement that leaves its numeric structure to
   inference is read at the instance declared last, so statements about the reals say so. *)
From Coq Require Import Reals Lia Lra.
From SM Require Import Num NumR.
(* after Num, whose String would shadow length *)
From Coq Require Import List.
Import ListNotations.
Local Open Scope R_scope.

Section Poly.
Context {A : Type} {NA : Num A}.

Lemma vv_length f (a b : list A) : length (vv f a b) = Nat.min (length a) (length b).
Proof. unfold vv. rewrite map_length, combine_length. reflexivity. Qed.
Lemma vs_length f (a : list A) s : length (vs f a s) = length a.
Proof. unfold vs. apply map_length. Qed.
Lemma sv_length f s (b : list A) : length (sv f s b) = length b.
Proof. unfold sv. apply map_length. Qed.

Lemma nth_vv f (a b : list A) i d :
  (i < length a)%nat -> (i < length b)%nat ->
  nth i (vv f a b) d = f (nth i a d) (nth i b d).
Proof.
  unfold vv. revert b i. induction a as [|x a IH]; intros [|y b] i Ha Hb;
    try solve [destruct (Nat.nlt_0_r _ Ha)|destruct (Nat.nlt_0_r _ Hb)].
  destruct i; [reflexivity|]. apply (IH b i); apply Nat.succ_lt_mono; assumption.
Qed.
Lemma nth_map1 {X} (f : X -> A) (a : list X) i d0 d : (i < length a)%nat -> nth i (map f a) d = f (nth i a d0).
Proof. intros H. rewrite (nth_indep _ d (f d0)) by (rewrite map_length; exact H). apply map_nth. Qed.
Lemma nth_vs f (a : list A) s i d : (i < length a)%nat -> nth i (vs f a s) d = f (nth i a d) s.
Proof. apply (nth_map1 (fun x => f x s)). Qed.
Lemma nth_sv f s (b : list A) i d : (i < length b)%nat -> nth i (sv f s b) d = f s (nth i b d).
Proof. apply (nth_map1 (f s)). Qed.

Lemma set_nth_length i y (x : list A) : length (set_nth i y x) = length x.
Proof. revert i; induction x as [|a x IH]; intros [|i]; simpl; auto. Qed.
Lemma scatter_length idx vals (x : list A) : length (scatter idx vals x) = length x.
Proof.
  revert vals x; induction idx as [|i idx IH]; intros [|v vals] x; simpl; auto.
  rewrite IH. apply set_nth_length.
Qed.
Lemma gather_length idx (x : list A) : length (gather idx x) = length idx.
Proof. unfold gather. apply map_length. Qed.
Lemma nth_gather idx (x : list A) k d :
  (k < length idx)%nat -> nth k (gather idx x) d = nth (nth k idx O) x zero.
Proof. apply (nth_map1 (fun i => nth i x zero)). Qed.
Lemma nth_set_nth i j y (x : list A) d :
  nth j (set_nth i y x) d = if (Nat.eqb i j && Nat.ltb i (length x))%bool then y else nth j x d.
Proof.
  revert i j; induction x as [|a x IH]; intros [|i] [|j]; simpl; auto.
  - rewrite Bool.andb_false_r. reflexivity.
  - rewrite IH. reflexivity.
Qed.

(* Tabulated vectors, the normal form of every vector expression.
   A vector of length n is [tab n f] for its entry function f; each combinator maps tabulated
   vectors to a tabulated vector, so a combinator tree over vectors of one length rewrites to a
   single [tab n (fun i => ...)], from which length and entries are read off (no side conditions). *)
Definition tab (n : nat) (f : nat -> A) : list A := map f (seq 0 n).

Lemma tab_length n f : length (tab n f) = n.
Proof. unfold tab. rewrite map_length. apply seq_length. Qed.
Lemma nth_tab n f i d : (i < n)%nat -> nth i (tab n f) d = f i.
Proof. intros H. unfold tab. rewrite (nth_map1 f _ i O), seq_nth by (rewrite ?seq_length; exact H). reflexivity. Qed.
Lemma tab_ext n f h : (forall i, (i < n)%nat -> f i = h i) -> tab n f = tab n h.
Proof. intros H. apply map_ext_in. intros i Hi. apply in_seq in Hi. apply H. lia. Qed.
Lemma eq_tab (x : list A) n f d :
  length x = n -> (forall i, (i < n)%nat -> nth i x d = f i) -> x = tab n f.
Proof.
  intros L H. apply (nth_ext _ _ d d); [rewrite tab_length; exact L|].
  intros i Hi. rewrite nth_tab by lia. apply H. lia.
Qed.
Lemma tab_nth (x : list A) n d : length x = n -> x = tab n (fun i => nth i x d).
Proof. intros L. apply (eq_tab _ _ _ d); [exact L|reflexivity]. Qed.

Lemma vv_map {X} op (f h : X -> A) l : vv op (map f l) (map h l) = map (fun x => op (f x) (h x)) l.
Proof. unfold vv. induction l as [|x l IH]; [reflexivity|]. cbn [map combine fst snd]. rewrite IH. reflexivity. Qed.
Lemma vv_tab op n f h : vv op (tab n f) (tab n h) = tab n (fun i => op (f i) (h i)).
Proof. apply vv_map. Qed.
Lemma vs_tab op n f s : vs op (tab n f) s = tab n (fun i => op (f i) s).
Proof. apply map_map. Qed.
Lemma sv_tab op s n f : sv op s (tab n f) = tab n (fun i => op s (f i)).
Proof. apply map_map. Qed.
Lemma map_tab (h : A -> A) n f : map h (tab n f) = tab n (fun i => h (f i)).
Proof. apply map_map. Qed.

(* a tabulated vector grows at either end; x[0], x[1:] and x[0] op= e act on the head, x[-1], x[:-1] and
   x[-1] op= e on the last entry *)
Lemma tab_S n f : tab (S n) f = f O :: tab n (fun i => f (S i)).
Proof. unfold tab. cbn [seq map]. rewrite <- seq_shift, map_map. reflexivity. Qed.
Lemma tab_snoc n f : tab (S n) f = tab n f ++ [f n].
Proof. unfold tab. rewrite seq_S, map_app. reflexivity. Qed.
Lemma tab_snoc_if n (h k : nat -> A) : tab (S n) (fun i => if Nat.eqb i n then h i else k i) = tab n k ++ [h n].
Proof.
  rewrite tab_snoc, Nat.eqb_refl. f_equal. apply tab_ext. intros i Hi.
  apply Nat.lt_neq, Nat.eqb_neq in Hi. rewrite Hi. reflexivity.
Qed.
Lemma upd_last_snoc u (l : list A) a : upd_last u (l ++ [a]) = l ++ [u a].
Proof.
  induction l as [|b l IH]; [reflexivity|]. cbn [app upd_last]. rewrite IH. destruct l; reflexivity.
Qed.

Lemma vfirst_tab n f : (1 <= n)%nat -> vfirst (tab n f) = f O.
Proof. destruct n; [lia|]. reflexivity. Qed.
Lemma vlast_tab n f : (1 <= n)%nat -> vlast (tab n f) = f (n - 1)%nat.
Proof. destruct n; [lia|]. intros _. rewrite tab_snoc, Nat.sub_succ, Nat.sub_0_r. apply last_last. Qed.
Lemma vlast_nth (x : list A) : vlast x = nth (length x - 1) x zero.
Proof.
  destruct x as [|a x]; [reflexivity|]. rewrite (f_equal vlast (tab_nth (a :: x) _ zero eq_refl)).
  apply (vlast_tab _ (fun i => nth i (a :: x) zero)), le_n_S, Nat.le_0_l.
Qed.
Lemma upd_first_tab u n f :
  upd_first u (tab n f) = tab n (fun i => if Nat.eqb i 0 then u (f i) else f i).
Proof. destruct n; [reflexivity|]. rewrite !tab_S. reflexivity. Qed.
Lemma upd_last_tab u n f :
  upd_last u (tab n f) = tab n (fun i => if Nat.eqb i (n - 1) then u (f i) else f i).
Proof.
  destruct n; [reflexivity|]. rewrite Nat.sub_succ, Nat.sub_0_r, tab_snoc_if, tab_snoc. apply upd_last_snoc.
Qed.
(* x[:-1] behind a new head, x[1:] before a new last entry: the two shifts of Link.step_dynamics *)
Lemma cons_vinit_tab x0 n f : (1 <= n)%nat ->
  x0 :: vinit (tab n f) = tab n (fun i => if Nat.eqb i 0 then x0 else f (i - 1)%nat).
Proof.
  destruct n; [lia|]. intros _. rewrite (tab_snoc n f), tab_S. unfold vinit. rewrite removelast_last.
  f_equal. apply tab_ext. intros i _. cbn [Nat.eqb]. rewrite Nat.sub_succ, Nat.sub_0_r. reflexivity.
Qed.
Lemma vtail_snoc_tab xN n f : (1 <= n)%nat ->
  vtail (tab n f) ++ [xN] = tab n (fun i => if Nat.eqb i (n - 1) then xN else f (i + 1)%nat).
Proof.
  destruct n; [lia|]. intros _. rewrite Nat.sub_succ, Nat.sub_0_r, tab_snoc_if, tab_S.
  f_equal. apply tab_ext. intros i _. rewrite Nat.add_1_r. reflexivity.
Qed.
End Poly.
#[global] Hint Rewrite @vv_tab @vs_tab @sv_tab @map_tab : tab.

(* the operations of the real instance in the standard library's own terms *)
Ltac numR := cbn [ofQ add sub mul div neg sq nexp nlog npow nmin nmax iflt NumR].

Lemma Q2R_0 : Q2R 0 = 0. Proof. unfold Q2R; simpl; lra. Qed.
Lemma Q2R_1 : Q2R 1 = 1. Proof. unfold Q2R; simpl; lra. Qed.
Lemma Q2R_m1 : Q2R ((-1) # 1) = -1. Proof. unfold Q2R; simpl; lra. Qed.
Lemma Q2R_1_20 : Q2R (1 # 20) = / 20. Proof. unfold Q2R; simpl; lra. Qed.
Lemma zeroR : @zero R NumR = 0. Proof. apply Q2R_0. Qed.
Lemma oneR : @one R NumR = 1. Proof. apply Q2R_1. Qed.

Definition Rsum (l : list R) : R := fold_right Rplus 0 l.
Lemma fold_left_Rplus (l : list R) a : fold_left Rplus l a = a + Rsum l.
Proof.
  revert a; induction l as [|x l IH]; intros a; simpl; [lra|]. rewrite IH. lra.
Qed.
Lemma vsum_Rsum (l : list R) : vsum l = Rsum l.
Proof.
  destruct l as [|x l]; simpl; [apply Q2R_0|]. change add with Rplus. apply fold_left_Rplus.
Qed.
Lemma Rsum_app a b : Rsum (a ++ b) = Rsum a + Rsum b.
Proof. induction a as [|x a IH]; simpl; [lra|]. rewrite IH; lra. Qed.
Lemma Rsum_map_concat_singletons {T} (f : T -> R) (l : list T) :
  Rsum (concat (map (fun x => [f x]) l)) = Rsum (map f l).
Proof. induction l as [|x l IH]; simpl; [reflexivity|]. rewrite IH. reflexivity. Qed.

(* finite sums: Spec.ssum over the reals is Rsum of a map *)
From Coq Require Import Permutation.
From SM Require Import Spec.

Lemma ssum_ext {A} {NA : Num A} {T} (f h : T -> A) l :
  (forall x, In x l -> f x = h x) -> ssum f l = ssum h l.
Proof.
  unfold ssum. induction l as [|x l IH]; intros H; cbn [fold_right]; [reflexivity|].
  rewrite (H x (or_introl eq_refl)), IH by (intros; apply H; right; auto). reflexivity.
Qed.

Lemma ssum_Rsum {T} (f : T -> R) (l : list T) : ssum f l = Rsum (map f l).
Proof.
  unfold ssum. induction l as [|x l IH]; cbn [fold_right map Rsum]; [apply zeroR|].
  rewrite IH. reflexivity.
Qed.

Lemma Rsum_cons x l : Rsum (x :: l) = x + Rsum l.
Proof. reflexivity. Qed.

Lemma Rsum_perm l l' : Permutation l l' -> Rsum l = Rsum l'.
Proof. induction 1; rewrite ?Rsum_cons; lra. Qed.
Lemma ssum_perm {T} (f : T -> R) l l' : Permutation l l' -> ssum f l = ssum f l'.
Proof. intros H. rewrite !ssum_Rsum. apply Rsum_perm, Permutation_map, H. Qed.

Lemma Rsum_map_ext {T} (f h : T -> R) l : (forall x, In x l -> f x = h x) -> Rsum (map f l) = Rsum (map h l).
Proof. intros H. f_equal. apply map_ext_in, H. Qed.
Lemma Rsum_map_plus {T} (f h : T -> R) l :
  Rsum (map (fun x => f x + h x) l) = Rsum (map f l) + Rsum (map h l).
Proof. induction l as [|x l IH]; cbn [map]; rewrite ?Rsum_cons, ?IH; [unfold Rsum; cbn|]; lra. Qed.
Lemma Rsum_map_scal {T} (c : R) (f : T -> R) l : Rsum (map (fun x => c * f x) l) = c * Rsum (map f l).
Proof. induction l as [|x l IH]; cbn [map]; rewrite ?Rsum_cons, ?IH; [unfold Rsum; cbn|]; lra. Qed.
Lemma Rsum_map_minus {T} (f h : T -> R) l :
  Rsum (map (fun x => f x - h x) l) = Rsum (map f l) - Rsum (map h l).
Proof. induction l as [|x l IH]; cbn [map]; rewrite ?Rsum_cons, ?IH; [unfold Rsum; cbn|]; lra. Qed.
Lemma Rsum_map_zero {T} (l : list T) : Rsum (map (fun _ => 0) l) = 0.
Proof. induction l as [|x l IH]; cbn [map]; rewrite ?Rsum_cons, ?IH; [unfold Rsum; cbn|]; lra. Qed.

Lemma Rsum_indicator (ns : list nat) k x :
  NoDup ns -> In k ns -> Rsum (map (fun n => if Nat.eqb n k then x else 0) ns) = x.
Proof.
  induction ns as [|a ns IH]; intros Hnd Hin; [destruct Hin|].
  apply NoDup_cons_iff in Hnd. destruct Hnd as [Hnin Hnd]. cbn [map]. rewrite Rsum_cons.
  destruct (Nat.eqb_spec a k) as [->|Hne].
  - rewrite (Rsum_map_ext _ (fun _ => 0)), Rsum_map_zero; [lra|].
    intros y Hy. destruct (Nat.eqb_spec y k) as [->|]; [contradiction|reflexivity].
  - destruct Hin as [->|Hin]; [congruence|]. rewrite (IH Hnd Hin). lra.
Qed.

Lemma reindex {T} (key : T -> nat) (f : T -> R) (ns : list nat) (es : list T) :
  NoDup ns -> (forall e, In e es -> In (key e) ns) ->
  Rsum (map f es) =
  Rsum (map (fun n => Rsum (map f (filter (fun e => Nat.eqb (key e) n) es))) ns).
Proof.
  intros Hnd. induction es as [|e es IH]; intros Hk.
  - cbn [filter map]. rewrite Rsum_map_zero. reflexivity.
  - cbn [map filter]. rewrite Rsum_cons, IH by (intros; apply Hk; right; auto).
    rewrite <- (Rsum_indicator ns (key e) (f e) Hnd (Hk e (or_introl eq_refl))).
    rewrite <- Rsum_map_plus. apply Rsum_map_ext. intros n _.
    rewrite (Nat.eqb_sym n (key e)).
    destruct (Nat.eqb (key e) n); cbn [map]; rewrite ?Rsum_cons; lra.
Qed.
