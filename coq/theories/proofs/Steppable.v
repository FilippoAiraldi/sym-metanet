From Coq Require Import Reals String.
From SM Require Import Num NumR NumPR Graph Engine Expr Types Blocks Sym ToFunction.
From SM.gen Require Import EnginesNp EnginesCs.
From SM.specs Require Import GraphWF C01_spec C11_spec C03_spec C07_spec.
From SM.proofs Require Import EnginesEq GraphFacts ValidSpecProof StepSpec Clamps Compiled LiftPrims BlocksFacts Regroup.
From Coq Require Import List.
Import ListNotations.
Local Open Scope R_scope.

Lemma clamp_wf_link U (st : state R) o m : wf_link U st m -> wf_link U (clamp_state o st) m.
Proof. unfold wf_link. cbn [clamp_state s_rho s_v s_vc]. unfold clamp. rewrite !if_map_length. intros H. exact H. Qed.

(* the options are clamps (Clamps.v) and clamps keep lengths, so the step with options is the plain step of C01 from
   the clamped state, clamped again *)
Theorem np_steps_with_all_options : steps_with_all_options (@np_engine R NumR).
Proof.
  intros U P g st opts WFG V WF Ht Hrc.
  rewrite (options_clamps np_engine np_max_is_nmax).
  destruct (np_step_is_METANET U P g (clamp_state opts st) WFG V
              (fun e He => clamp_wf_link U st opts _ (WF e He)) Ht Hrc) as (out & Hs & FL & FQ).
  rewrite Hs. eexists. split; [reflexivity|]. unfold clamp_out. cbn [o_links o_queues]. split; [|split].
  - rewrite map_map. apply (Forall2_map_eq _ _ _ _ _ FL). intros e y Hy. apply Hy.
  - intros x Hx. apply in_map_iff in Hx. destruct Hx as (y & <- & Hy). cbn [fst snd].
    destruct (Forall2_In_r _ _ _ _ FL Hy) as (e & He & (Hf & L1 & L2 & _)).
    destruct (WF e (links_edges g e He)) as (_ & Lr & Lv & _). unfold clamp. rewrite Hf, !if_map_length. split; congruence.
  - rewrite map_map, <- (map_id (map fst (origins_dict g))). apply (Forall2_map_eq _ _ _ _ _ FQ). intros o y Hy. apply Hy.
Qed.

Theorem cs_steps_with_all_options : steps_with_all_options (@cs_engine R NumR).
Proof. rewrite cs_engine_eq_np. exact np_steps_with_all_options. Qed.

Lemma mem_link_ids g e : wf_graph g -> In e (g_edges g) -> mem (e_link e) (link_ids g) = true.
Proof.
  intros W He. apply mem_In, in_map, edges_links; assumption.
Qed.

Lemma origin_flow_succeeds {A} {NA : Num A} (E : engine A) U P g (st : state A) o :
  vfacts U g -> In o (origin_ids g) -> exists q, origin_flow E U P g st o = Ok q.
Proof.
  intros VF Ho. destruct (vf_orig_dict_inv _ _ VF o Ho) as (n & Hn).
  destruct (vf_orig_out _ _ VF _ _ Hn) as (e1 & Hout).
  unfold origin_flow. rewrite (exiting_link_spec U g VF _ _ _ Hn Hout). eexists. reflexivity.
Qed.

Theorem compiles_at_every_level_proof : compiles_at_every_level.
Proof.
  intros nm U g opts hd hp c more WFG V LS.
  set (env := fun _ : ident => 1). set (P := sym_params hd hp).
  (* the step succeeds on the reals, at the point where every symbol is 1: the network's own symbols have the
     shapes of its links, and every parameter is 1 there *)
  destruct (cs_steps_with_all_options U (eval_params env P) g (eval_state env (net_state U g)) opts WFG V)
    as (out' & Ho & _); [|intros e _; exact R1_neq_R0..|].
  { intros e He. destruct (LS e He) as (HN & Hv). unfold wf_link, eval_state, net_state. cbn [s_rho s_v s_vc].
    rewrite (mem_link_ids g e WFG He), !map_length, !seq_length. repeat split; try reflexivity; try exact HN.
    destruct (lvsl (linkd U (e_link e))) as [vsl|]; [|exact I]. destruct Hv as [A B].
    repeat split; try assumption. rewrite !map_length, seq_length. reflexivity. }
  (* hence on the trees, of which it is the value *)
  pose proof (eval_cs_step env U P g opts (net_state U g)) as H.
  rewrite Ho in H. unfold tf_outputs, st0.
  destruct (network_step cs_engine U P g opts (net_state U g)) as [out|]; [|discriminate]. cbn [bind].
  destruct more; [|eexists; reflexivity].
  (* the flows: every origin of a valid network has its one leaving link *)
  unfold flow_outputs, origin_flow_entries.
  destruct (mapM_Forall2 (fun o => bind (origin_flow cs_engine U P g (st1 cs_engine U g opts) o)
                                        (fun q => Ok (("q_o_" ++ oname nm o)%string, [q])))
                         (fun _ _ => True) (origin_ids g)) as (qo & Hqo & _).
  { intros o Ho'. destruct (origin_flow_succeeds cs_engine U P g (st1 cs_engine U g opts) o (validb_vfacts U g WFG V) Ho')
      as (q & Hq). rewrite Hq. eexists. split; [reflexivity|exact I]. }
  rewrite Hqo. cbn [bind]. eexists. reflexivity.
Qed.

(* the origin laws are not only defined (no nan / inf born from finite inputs): they equal the injection of their
   real value (LiftPrims.v) *)
Theorem np_mainstream_defined : mainstream_defined (@Np.origins_get_mainstream_flow PR NumPR).
Proof. intros d w vctrl v1 rc a vf lanes T HT _ _ Hrc Ha Hvf. eexists. apply np_main_lift; assumption. Qed.

Theorem np_ramp_defined : ramp_defined (@Np.origins_get_ramp_flow PR NumPR).
Proof. intros d w C r rmax r1 rc T ty HT Hrc. eexists. apply np_ramp_lift; assumption. Qed.
