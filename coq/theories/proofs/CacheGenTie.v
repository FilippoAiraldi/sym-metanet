(* CacheGenTie.v — the wrapper built by the regenerated invalidate_cache is Cache.v's cache_drop followed by the call. *)
From Coq Require Import List.
From SM Require Import Cache PyCacheSupport.
From SM.gen Require Import CacheGen.
From SM.specs Require Import CacheGen_spec.
From SM.proofs Require Import ListFacts.
Import ListNotations.

Lemma classify_props (ks : list ckey) : gen_classify (map CProp ks) = Some (ks, []).
Proof.
  induction ks as [|k ks IH] using rev_ind; [reflexivity|]. unfold gen_classify in *. rewrite map_app, fold_left_app, IH. reflexivity.
Qed.

(* also in CacheFresh.v: the tie of the decorator and the freshness proof do not load one another *)
Lemma ckey_eqb_true a b : ckey_eqb a b = true -> a = b.
Proof. destruct a, b; try reflexivity; intros H; discriminate H. Qed.

Definition drop1 (self : cache) (prop : ckey) : cache :=
  if pc_mem self prop then pc_del ckey_eqb self prop else self.

Lemma drop1_spec c p k : drop1 c p k = if ckey_eqb k p then None else c k.
Proof.
  unfold drop1, pc_mem, pc_del. destruct (c p) eqn:E; [reflexivity|].
  destruct (ckey_eqb k p) eqn:Ek; [|reflexivity]. apply ckey_eqb_true in Ek. subst. exact E.
Qed.

Lemma drop_all_spec ks : forall c k, fold_left drop1 ks c k = cache_drop ks c k.
Proof.
  induction ks as [|p ks IH]; intros c k; cbn [fold_left].
  - reflexivity.
  - rewrite IH. unfold cache_drop. cbn [existsb]. rewrite drop1_spec.
    destruct (ckey_eqb k p); cbn [orb]; [destruct (existsb (ckey_eqb k) ks); reflexivity|reflexivity].
Qed.

Theorem decorated_call_drops_exactly_the_named_properties_proof : decorated_call_drops_exactly_the_named_properties.
Proof.
  intros ks Hne. unfold gen_invalidate_cache. rewrite classify_props.
  (* the wrapper has one shape for a single property and one for several; both run drop1 over ks, then the call *)
  destruct ks as [|k1 [|k2 ks]]; [contradiction|..]; cbn [isnil map length Nat.eqb]; (eexists; split; [reflexivity|]); intros R func c log;
    (eexists; split; [reflexivity|]); intros k; rewrite <- drop_all_spec; reflexivity.
Qed.

Lemma classify_other (a b : list (callable ckey)) : gen_classify (a ++ COther :: b) = None.
Proof.
  unfold gen_classify. rewrite fold_left_app. cbn [fold_left].
  destruct (fold_left _ a (Some ([], []))) as [[ps ls]|]; apply fold_left_fixed; reflexivity.
Qed.

Theorem decorator_refuses_what_it_cannot_invalidate_proof : decorator_refuses_what_it_cannot_invalidate.
Proof.
  split; [reflexivity|]. intros a b. unfold gen_invalidate_cache. rewrite classify_other. case (isnil _); reflexivity.
Qed.
