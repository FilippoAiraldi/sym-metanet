(* BlocksFacts.v — facts about the element-layer model (Blocks.v) that hold for every numeric structure and every
   engine record: extensionality of states; the result monad (bind, mapM), up to a whole step whose results are a
   map of another's; and the anonymous sub-computations of node_up_speed_flow and link_raw_V under names, so that
   a proof that walks the glue states one lemma per part.  (One fact is about the NumPy-derived engine only:
   what its vcat does to a list of scalars, np_vcat_singletons.) *)
From Coq Require Import List FunctionalExtensionality.
From SM Require Import Num Graph Engine Expr Types Blocks.
From SM.gen Require Import EnginesNp.
From SM.proofs Require Import ListFacts.
Import ListNotations.

(* pointwise in the three fields init_vars rewrites *)
Lemma state_ext {A} (s t : state A) :
  (forall m, s_rho s m = s_rho t m) -> (forall m, s_v s m = s_v t m) -> (forall o, s_w s o = s_w t o) ->
  s_uo s = s_uo t -> s_do s = s_do t -> s_vc s = s_vc t -> s_dd s = s_dd t -> s = t.
Proof.
  destruct s, t. cbn. intros Hr Hv Hw -> -> -> ->.
  rewrite (functional_extensionality _ _ Hr), (functional_extensionality _ _ Hv), (functional_extensionality _ _ Hw).
  reflexivity.
Qed.
Lemma init_state_off {A} {NA : Num A} (E : engine A) a b c (st : state A) :
  init_state E (Build_options false false false a b c) st = st.
Proof. destruct st. reflexivity. Qed.

Lemma bind_ret {T} (x : res T) : (r <- x ;; Ok r) = x.
Proof. destruct x; reflexivity. Qed.
Lemma bind_assoc {T V W} (a : res T) (k : T -> res V) (h : V -> res W) :
  bind (bind a k) h = bind a (fun x => bind (k x) h).
Proof. destruct a; reflexivity. Qed.
Lemma bind_ext {T V} (a : res T) (k k' : T -> res V) : (forall x, k x = k' x) -> bind a k = bind a k'.
Proof. intros H. destruct a; [apply H|reflexivity]. Qed.
Lemma bind_if {T V} (b : bool) (x y : T) (k : T -> res V) : bind (if b then Ok x else Ok y) k = k (if b then x else y).
Proof. destruct b; reflexivity. Qed.
Lemma bind_Ok {T V} (a : res T) (k : T -> res V) y : bind a k = Ok y -> exists x, a = Ok x /\ k x = Ok y.
Proof. destruct a as [x|]; [|discriminate]. intros H. exists x. split; [reflexivity|exact H]. Qed.

Lemma mapM_Forall2 {T V} (f : T -> res V) (Q : T -> V -> Prop) l :
  (forall x, In x l -> exists y, f x = Ok y /\ Q x y) ->
  exists ys, mapM f l = Ok ys /\ Forall2 Q l ys.
Proof.
  induction l as [|x l IH]; intros H.
  - exists []. split; [reflexivity|constructor].
  - destruct (H x (or_introl eq_refl)) as (y & Hy & Qy).
    destruct IH as (ys & Hys & Fys); [intros z Hz; apply H; right; exact Hz|].
    exists (y :: ys). split; [|constructor; assumption].
    cbn [mapM]. rewrite Hy. cbn [bind]. rewrite Hys. reflexivity.
Qed.

Lemma mapM_inv {T V} (f : T -> res V) l ys : mapM f l = Ok ys -> Forall2 (fun x y => f x = Ok y) l ys.
Proof.
  revert ys. induction l as [|a l IH]; intros ys H; cbn [mapM] in H.
  - inversion H. constructor.
  - apply bind_Ok in H. destruct H as (y & Fa & H). apply bind_Ok in H. destruct H as (r & Fr & H). inversion H.
    constructor; [exact Fa|apply IH, Fr].
Qed.
Lemma mapM_Forall {T V} (f : T -> res V) (Q : V -> Prop) l ys :
  (forall x y, f x = Ok y -> Q y) -> mapM f l = Ok ys -> Forall Q ys.
Proof. intros H Hm. apply mapM_inv in Hm. induction Hm; constructor; eauto. Qed.

Lemma mapM_ok {T V} (f : T -> V) (l : list T) : mapM (fun x => Ok (f x)) l = Ok (map f l).
Proof. induction l as [|x xs IH]; simpl; [reflexivity|]. rewrite IH. reflexivity. Qed.

(* the loops of Network.step pair every element with its result; a run whose results are h of another run's
   (an injection, a clamp) yields h of the other's list, entry by entry *)
Lemma mapM_map {T K V W} (key : T -> K) (f : T -> res V) (f' : T -> res W) (h : V -> W) l :
  (forall x, In x l -> f' x = bind (f x) (fun y => Ok (h y))) ->
  mapM (fun x => r <- f' x ;; Ok (key x, r)) l =
  bind (mapM (fun x => r <- f x ;; Ok (key x, r)) l) (fun ys => Ok (map (fun p => (fst p, h (snd p))) ys)).
Proof.
  induction l as [|x l IH]; intros H; [reflexivity|]. cbn [mapM].
  rewrite (H x (or_introl eq_refl)), IH by (intros z Hz; apply H; right; exact Hz).
  destruct (f x); [|reflexivity]. cbn [bind]. destruct (mapM (fun z => bind (f z) _) l); reflexivity.
Qed.

(* hence for a whole step, between two engines, numeric structures, option sets or states *)
Lemma network_step_map {A B} {NA : Num A} {NB : Num B} (E : engine A) (E' : engine B) U P P' g o o' st st'
      (hw : option A -> option B) (hl : list A * list A -> list B * list B) :
  (forall k, In k (map fst (origins_dict g)) ->
             origin_step E' U P' g (init_state E' o' st') o' k =
             bind (origin_step E U P g (init_state E o st) o k) (fun r => Ok (hw r))) ->
  (forall e, In e (links g) ->
             link_step E' U P' g (init_state E' o' st') o' (e_link e) =
             bind (link_step E U P g (init_state E o st) o (e_link e)) (fun r => Ok (hl r))) ->
  network_step E' U P' g o' st' =
  bind (network_step E U P g o st)
       (fun out => Ok {| o_links := map (fun x => (fst x, hl (snd x))) (o_links out);
                         o_queues := map (fun x => (fst x, hw (snd x))) (o_queues out) |}).
Proof.
  intros Hw Hl. unfold network_step. cbv zeta.
  rewrite (mapM_map (fun k => k) _ _ hw _ Hw), (mapM_map e_link _ _ hl _ Hl).
  destruct (mapM _ (map fst (origins_dict g))); [|reflexivity]. cbn [bind].
  destruct (mapM _ (links g)); reflexivity.
Qed.

Lemma np_vcat_singletons {A} {NA : Num A} {T} (f : T -> A) (l : list T) :
  e_vcat np_engine (map (fun x => [f x]) l) = map f l.
Proof. cbn [e_vcat np_engine]. unfold Np.engine_vcat. rewrite <- flat_map_concat_map. apply flat_map_single. Qed.

Section Parts.
Context {A : Type} {NA : Num A}.
Variable E : engine A.
Variable U : universe.
Variable P : params A.
Variable g : graph.
Variable st : state A.

(* nodes.py:100-106: speed and flow of the origin attached to node n, if there is one *)
Definition node_origin (n : nat) : res (option (A * A)) :=
  match origin_at g n with
  | Some o => v_o <- origin_speed g st o ;; q_o <- origin_flow E U P g st o ;; Ok (Some (v_o, q_o))
  | None => Ok None
  end.
(* nodes.py:119, 134: the turn rates of the links leaving n, as the node hands them to the engine *)
Definition turn_rates (n : nat) : list A := e_vcat E (map (fun e' => [lp P (e_link e') Pturn]) (out_links g n)).
(* nodes.py:108-138: the three shapes of a node seen from its leaving link m *)
Definition node_up_of (n m : nat) (ov : option (A * A)) : res (A * A) :=
  match in_links g n with
  | [] => match ov with Some vq => Ok vq | None => Err ENoneFlow end
  | [e] =>
      let mu := e_link e in
      let v := vlast (s_v st mu) in
      let q := vlast (link_flow E U st mu) in
      let q := match ov with Some (_, q_o) => add q q_o | None => q end in
      let q := if (1 <? List.length (out_links g n))%nat
               then e_up_flow E (e_vcat E [[q]]) (lp P m Pturn) (turn_rates n) None
               else q in
      Ok (v, q)
  | es =>
      let v_last := e_vcat E (map (fun e => [vlast (s_v st (e_link e))]) es) in
      let q_last := e_vcat E (map (fun e => [vlast (link_flow E U st (e_link e))]) es) in
      Ok (e_up_speed E q_last v_last,
          e_up_flow E q_last (lp P m Pturn) (turn_rates n) (option_map snd ov))
  end.
Lemma node_up_speed_flow_eq n m :
  node_up_speed_flow E U P g st n m = ov <- node_origin n ;; node_up_of n m ov.
Proof. reflexivity. Qed.

(* links.py:211-221: flow of an on-ramp merging at the upstream node, when delta is given *)
Definition merging_ramp_flow (n_up : nat) : res (option A) :=
  match gdelta P, origin_at g n_up, in_links g n_up with
  | Some _, Some o, _ :: _ =>
      if is_ramp (okind_of U o) then q_o <- origin_flow E U P g st o ;; Ok (Some q_o) else Ok None
  | _, _, _ => Ok None
  end.
(* links.py:223-233: lanes lost towards the only link leaving the downstream node, when phi is given *)
Definition lane_drop (m n_down : nat) : option A :=
  match gphi P with
  | Some _ =>
      match out_links g n_down with
      | [e] => let dl := (llanes (linkd U m) - llanes (linkd U (e_link e)))%Q in
               if Qeq_bool dl 0 then None else Some (ofQ dl)
      | _ => None
      end
  | None => None
  end.
(* links.py:202-209, 235-257: the two engine calls, once the neighbours' values are known *)
Definition link_update (Veq : list A) (m : nat) (vq0 : A * A) (rhoN1 : A) (q_ramp lanes_drop : option A)
  : list A * list A :=
  let rho := s_rho st m in
  let v := s_v st m in
  let q := link_flow E U st m in
  let multi := (1 <? lN (linkd U m))%nat in
  let q_up := if multi then e_vcat E [[snd vq0]; vinit q] else [snd vq0] in
  let v_up := if multi then e_vcat E [[fst vq0]; vinit v] else [fst vq0] in
  let rho_down := if multi then e_vcat E [vtail rho; [rhoN1]] else [rhoN1] in
  (e_step_rho E rho q q_up (lanes U m) (lp P m PL) (gT P),
   e_step_v E v v_up rho rho_down Veq (lanes U m) (lp P m PL) (gtau P) (geta P) (gkappa P) (gT P)
     q_ramp (gdelta P) lanes_drop (gphi P) (Some (lp P m Prhocrit))).
Lemma link_raw_V_eq Veq m :
  link_raw_V E U P g st Veq m =
  ud <- match nodes_of_link g m with Some ud => Ok ud | None => Err EKey end ;;
  vq0 <- node_up_speed_flow E U P g st (fst ud) m ;;
  rhoN1 <- node_down_density E U P g st (snd ud) ;;
  q_ramp <- merging_ramp_flow (fst ud) ;;
  Ok (link_update Veq m vq0 rhoN1 q_ramp (lane_drop m (snd ud))).
Proof. reflexivity. Qed.
End Parts.
