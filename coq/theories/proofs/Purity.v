(* Purity.v — C12.  Network.step is two loops over the members: initialise each, then step each that declares
   states.  Both are folds of updates that write one slot (ListFacts.fold_left_point), which gives the slot of every
   member after the call in closed form (step_all_slots), with nothing in it of what the slots held before: part (a)
   of the property (part (b), a fact about a finite regenerated table, is decided in props/C12.v). *)
From Coq Require Import List Arith Bool.
From SM Require Import Lifecycle.
From SM.specs Require Import C12_spec.
From SM.proofs Require Import ListFacts LifecycleProofs.
Import ListNotations.

Section P.
Variable n : lnet.

Lemma existsb_In e l : In e l -> existsb (Nat.eqb e) l = true.
Proof. apply (existsb_eqb _ Nat.eqb_eq). Qed.

Definition inited (k : src) (x : slot) : Prop :=
  next x = None /\ match k with Numbers => vars x = Some None | Symbols => vars x <> None end.

Lemma init_all k l s :
  let s1 := fold_left (fun s e => init_one s e k) l s in
  members s1 = members s /\ forall e, In e l -> inited k (slots s1 e).
Proof.
  apply (fold_left_point _ slots (fun s' => members s' = members s) (fun _ => inited k)); [| | |reflexivity].
  - intros s' a <-. destruct k; reflexivity.
  - intros s' a e Hne. destruct k; apply upd_other, Hne.
  - intros s' a _. destruct k; simpl; rewrite upd_same; split; (reflexivity || discriminate).
Qed.

Definition stepf (s : lstate) (e : nat) : lstate := if declares_states n e then step_one n s e else s.
Lemma stepf_members s e : members (stepf s e) = members s.
Proof. unfold stepf. destruct (declares_states n e); reflexivity. Qed.
Lemma stepf_vars s e x : vars (slots (stepf s e) x) = vars (slots s x).
Proof.
  unfold stepf. destruct (declares_states n e); [|reflexivity]. simpl. unfold upd.
  destruct (Nat.eqb_spec x e) as [->|]; reflexivity.
Qed.
Lemma stepf_other s a e : e <> a -> slots (stepf s a) e = slots s e.
Proof. intros H. unfold stepf. destruct (declares_states n a); [apply upd_other, H|reflexivity]. Qed.
Lemma fold_step_members l : forall s, members (fold_left stepf l s) = members s.
Proof. intros s. apply (fold_left_inv (fun s' => members s' = members s)); [|reflexivity]. intros a e _ <-. apply stepf_members. Qed.

(* what a step reads depends on the members and on their variables only, and steps change neither *)
Definition same_vars (s s' : lstate) : Prop := members s' = members s /\ forall x, vars (slots s' x) = vars (slots s x).
Lemma read_gens_ext s s' e : same_vars s s' -> gens_of s' (e :: reads n s' e) = gens_of s (e :: reads n s e).
Proof.
  intros [M V]. unfold reads. rewrite M. unfold gens_of. apply flat_map_ext. intros x. rewrite V. reflexivity.
Qed.

Lemma step_all l s1 :
  let s2 := fold_left stepf l s1 in
  same_vars s1 s2 /\
  forall e, In e l ->
    next (slots s2 e) = if declares_states n e then Some (gens_of s1 (e :: reads n s1 e)) else next (slots s1 e).
Proof.
  (* the fold invariant also says that an element without states keeps its slot: that is what its own update,
     which does nothing, has to hand on as "next = next (slots s1 e)" *)
  destruct (fold_left_point stepf slots
    (fun s' => same_vars s1 s' /\ forall x, declares_states n x = false -> slots s' x = slots s1 x)
    (fun e x => next x = if declares_states n e then Some (gens_of s1 (e :: reads n s1 e)) else next (slots s1 e)))
    with (l := l) (s := s1) as [[J _] Q]; [| | |split; [split|]; reflexivity|split; assumption].
  - intros s' a [[M V] O]. split; [split|].
    + rewrite stepf_members. exact M.
    + intros x. rewrite stepf_vars. apply V.
    + intros x Hx. rewrite <- (O x Hx). unfold stepf. destruct (declares_states n a) eqn:D; [|reflexivity].
      apply upd_other. intros ->. congruence.
  - intros s' a e. apply stepf_other.
  - intros s' a [J O]. unfold stepf. destruct (declares_states n a) eqn:D; [|rewrite (O a D); reflexivity].
    simpl. rewrite upd_same. simpl. f_equal. apply read_gens_ext, J.
Qed.

Lemma step_all_slots k s e : In e (members s) ->
  let s1 := fold_left (fun s e => init_one s e k) (members s) s in
  slots (fst (lstep n s (StepAll k))) e =
  {| vars := vars (slots s1 e); next := if declares_states n e then Some (gens_of s1 (e :: reads n s1 e)) else None |}.
Proof.
  intros He s1. destruct (init_all k (members s) s) as [M I]. fold s1 in M, I.
  unfold lstep. cbn [fst]. fold s1. change (fun s e => if declares_states n e then step_one n s e else s) with stepf.
  destruct (step_all (members s1) s1) as [[_ V] N]. specialize (V e). specialize (N e). rewrite (proj1 (I e He)) in N.
  destruct (slots (fold_left stepf (members s1) s1) e) as [v nx]. cbn [vars next] in V, N. rewrite V, N by (rewrite M; exact He). reflexivity.
Qed.

Theorem step_shape_forgets_history_proof : step_shape_forgets_history n.
Proof.
  assert (H : forall s k e, In e (members s) -> slot_shape (slots (fst (lstep n s (StepAll k))) e) = (true, declares_states n e)).
  { intros s k e He. rewrite (step_all_slots k s e He). destruct (init_all k (members s) s) as [_ I].
    destruct (I e He) as [_ Iv]. unfold slot_shape. cbn [vars next].
    destruct (declares_states n e); destruct k; destruct (vars _); congruence. }
  intros s1 s2 k Hm e He. rewrite !H; [reflexivity|rewrite <- Hm|]; exact He.
Qed.

(* with numbers every generation list is empty, so the slots themselves coincide *)
Lemma gens_of_nil s els : (forall e, In e els -> vars (slots s e) = Some None) -> gens_of s els = [].
Proof.
  intros H. apply flat_map_eq_nil. intros e He. rewrite (H e He). reflexivity.
Qed.
Lemma reads_members s e x : In x (reads n s e) -> In x (members s).
Proof. intros H. apply filter_In, proj2, andb_true_iff, proj1, (existsb_eqb _ Nat.eqb_eq) in H. exact H. Qed.

Theorem step_forgets_history_proof : step_forgets_history n.
Proof.
  assert (H : forall s e, In e (members s) -> slots (fst (lstep n s (StepAll Numbers))) e =
                          {| vars := Some None; next := if declares_states n e then Some [] else None |}).
  { intros s e He. rewrite (step_all_slots Numbers s e He). destruct (init_all Numbers (members s) s) as [M I].
    cbv zeta in *. rewrite gens_of_nil, (proj2 (I e He)); [reflexivity|].
    intros x [<-|Hx]; apply I; [exact He|]. rewrite <- M. exact (reads_members _ _ _ Hx). }
  intros s1 s2 Hm e He. rewrite !H; [reflexivity|rewrite <- Hm|]; exact He.
Qed.
End P.
