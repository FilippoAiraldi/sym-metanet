(* ValidSpecProof.v — the validation model (Validity.v) read pass by pass: when each pass reports nothing,
   hence C06: validb = true iff the nine documented conditions; then the structural facts the dynamics theorems
   use of a valid network (GraphWF.vfacts), each from the conditions it needs. *)
From Coq Require Import List Arith Bool Permutation.
From SM Require Import Graph Types Validity.
From SM.specs Require Import GraphWF C06_spec.
From SM.proofs Require Import GraphFacts.
Import ListNotations.

Lemma NoDup_app_disj {T} (a b : list T) x : NoDup (a ++ b) -> In x a -> ~ In x b.
Proof. intros H. apply NoDup_app_iff in H. apply H. Qed.

Lemma isnil_true {T} (l : list T) : isnil l = true <-> l = [].
Proof. destruct l; simpl; split; (reflexivity || discriminate). Qed.

Lemma elem_eqb_eq x y : elem_eqb x y = true <-> x = y.
Proof.
  destruct x, y; simpl; rewrite ?Nat.eqb_eq; split; (discriminate || congruence).
Qed.

Lemma dup_msgs_nil seen l : dup_msgs seen l = [] <-> NoDup l /\ forall y, In y l -> ~ In y seen.
Proof.
  revert seen; induction l as [|x l IH]; intros seen; simpl.
  - split; [intros _; split; [constructor|intros y []]|reflexivity].
  - rewrite app_eq_nil_iff, IH, NoDup_cons_iff.
    assert (E : (if existsb (elem_eqb x) seen then [MDup x] else []) = [] <-> ~ In x seen).
    { rewrite <- (existsb_eqb _ elem_eqb_eq). destruct (existsb (elem_eqb x) seen); split; congruence. }
    rewrite E. split.
    + intros (Hx & Hl & Hd). repeat split; auto.
      * intros Hin. apply (Hd x Hin). left. reflexivity.
      * intros y [<-|Hy] Hs; [contradiction|]. apply (Hd y Hy). right. exact Hs.
    + intros ((Hx & Hl) & Hd). repeat split; auto.
      intros y Hy [<-|Hs]; [contradiction|]. apply (Hd y); auto.
Qed.

Definition parts (sel : node_entry -> option nat) (nodes : list node_entry) :=
  flat_map (fun ne => opt_list id (sel ne)) nodes.

(* the objects pass (1) counts are the links, then per node its origin and destination: a rearrangement of
   all links, all origins, all destinations *)
Lemma counted_perm g :
  Permutation (counted g)
    (map EL (map e_link (links g)) ++ map EO (parts n_orig (g_nodes g)) ++ map ED (parts n_dest (g_nodes g))).
Proof.
  unfold counted. rewrite map_map. apply Permutation_app_head.
  unfold parts. induction (g_nodes g) as [|ne l IH]; simpl; [constructor|].
  destruct (n_orig ne) as [o|], (n_dest ne) as [d|]; simpl.
  - constructor. apply (Permutation_trans (perm_skip _ IH)), Permutation_middle.
  - constructor. exact IH.
  - apply (Permutation_trans (perm_skip _ IH)), Permutation_middle.
  - exact IH.
Qed.

Lemma NoDup_tagged a b c : NoDup (map EL a ++ map EO b ++ map ED c) <-> NoDup a /\ NoDup b /\ NoDup c.
Proof.
  rewrite !NoDup_app_iff. split.
  - intros (A & (B & C & _) & _). repeat split; eapply NoDup_map_inv; eassumption.
  - intros (A & B & C).
    repeat split; try (apply NoDup_map_inj_on; [intros x y _ _ [= E]; exact E|assumption]);
      intros x Hx Hy; apply in_map_iff in Hx; destruct Hx as (i & <- & _).
    + apply in_map_iff in Hy. destruct Hy as (j & E & _). discriminate E.
    + rewrite in_app_iff, !in_map_iff in Hy. destruct Hy as [(j & E & _)|(j & E & _)]; discriminate E.
Qed.

Lemma counted_nodup g : NoDup (counted g) <-> c1 g.
Proof. rewrite counted_perm. apply NoDup_tagged. Qed.

(* the dictionaries passes (3) and (4) iterate over: when no attachment is listed twice they hold exactly the
   (attachment, node) pairs *)
Lemma attach_dict_get_once sel nodes ne o : NoDup (parts sel nodes) ->
  In ne nodes -> sel ne = Some o -> dict_get o (attach_dict sel nodes) = Some (nid ne).
Proof.
  intros Hnd Hne Ho. apply attach_dict_get; auto. intros ne' Hne' Ho'.
  apply (NoDup_flat_map_inj _ _ _ _ o Hnd Hne' Hne); [rewrite Ho'|rewrite Ho]; left; reflexivity.
Qed.

Lemma forall_attach_dict sel nodes (Q : nat * nat -> Prop) : NoDup (parts sel nodes) ->
  ((forall on, In on (attach_dict sel nodes) -> Q on) <->
   (forall ne, In ne nodes -> forall o, sel ne = Some o -> Q (o, nid ne))).
Proof.
  intros Hnd. split.
  - intros H ne Hne o Ho. apply H, dict_get_In, attach_dict_get_once; assumption.
  - intros H [o n] Hin. apply attach_dict_In in Hin. destruct Hin as (ne & Hne & Ho & <-). exact (H ne Hne o Ho).
Qed.

(* reports are appended: nothing is reported iff no part reports *)
Lemma app_nil_and {T} (a b : list T) (A B : Prop) :
  (a = [] <-> A) -> (b = [] <-> B) -> (a ++ b = [] <-> A /\ B).
Proof. intros <- <-. apply app_eq_nil_iff. Qed.

(* one report (a singleton list or none): of a node that lacks something, of a node with several links *)
Lemma missing_nil {T V W} (a : list T) (o : option V) (m : W) :
  (if (length a =? 0) && isnil (opt_list id o) then [m] else []) = [] <-> (a = [] -> o <> None).
Proof. destruct a, o; simpl; intuition congruence. Qed.
Lemma several_nil {T W} (a : list T) (m : W) : (if 1 <? length a then [m] else []) = [] <-> length a <= 1.
Proof. rewrite <- Nat.ltb_ge. destruct (1 <? length a); split; congruence. Qed.

Lemma node_msgs_nil g ne : node_msgs g ne = [] <->
  ~ (n_orig ne <> None /\ n_dest ne <> None) /\
  ~ (in_links g (nid ne) = [] /\ out_links g (nid ne) = []) /\
  (in_links g (nid ne) = [] -> n_orig ne <> None) /\
  (out_links g (nid ne) = [] -> n_dest ne <> None).
Proof.
  unfold node_msgs. repeat apply app_nil_and.
  - destruct (n_orig ne), (n_dest ne); intuition congruence.
  - destruct (in_links g (nid ne)), (out_links g (nid ne)); simpl; intuition congruence.
  - apply missing_nil.
  - apply missing_nil.
Qed.

Lemma origin_msgs_nil U g o n : origin_msgs U g (o, n) = [] <->
  (is_ramp (okind_of U o) = false -> in_links g n = []) /\ length (out_links g n) <= 1.
Proof.
  apply app_nil_and; [|apply several_nil].
  destruct (is_ramp (okind_of U o)), (in_links g n); simpl; intuition congruence.
Qed.

Lemma dest_msgs_nil g d n : dest_msgs g (d, n) = [] <->
  length (in_links g n) <= 1 /\ out_links g n = [].
Proof. apply app_nil_and; [apply several_nil|]. destruct (out_links g n); simpl; intuition congruence. Qed.

Lemma validb_passes U g : validb U g = true <->
  NoDup (counted g) /\
  (forall ne, In ne (g_nodes g) -> node_msgs g ne = []) /\
  (forall on, In on (origins_dict g) -> origin_msgs U g on = []) /\
  (forall dn, In dn (dests_dict g) -> dest_msgs g dn = []).
Proof.
  unfold validb, is_valid_msgs. rewrite isnil_true. repeat apply app_nil_and; try apply flat_map_eq_nil.
  rewrite dup_msgs_nil. intuition.
Qed.

(* each pass is silent iff its conditions hold at every node (a universal statement distributes over the
   conjunction of the conditions); passes (3) and (4) look at the nodes through the dictionaries, which is sound
   once (1) holds *)
Lemma forall_and {T} (D A B : T -> Prop) :
  (forall x, D x -> A x /\ B x) <-> (forall x, D x -> A x) /\ (forall x, D x -> B x).
Proof. split; [intros H; split; intros x Hx; apply (H x Hx)|intros [HA HB] x Hx; split; auto]. Qed.
Lemma forall_iff {T} (D A B : T -> Prop) :
  (forall x, A x <-> B x) -> ((forall x, D x -> A x) <-> (forall x, D x -> B x)).
Proof. intros H. split; intros HA x Hx; apply H, HA, Hx. Qed.

Lemma pass2_nil g : (forall ne, In ne (g_nodes g) -> node_msgs g ne = []) <-> c2 g /\ c3 g /\ c4 g /\ c5 g.
Proof. unfold c2, c3, c4, c5, per_node. rewrite <- !forall_and. apply forall_iff. intros ne. apply node_msgs_nil. Qed.

Lemma pass3_nil U g : NoDup (parts n_orig (g_nodes g)) ->
  ((forall on, In on (origins_dict g) -> origin_msgs U g on = []) <-> c6 U g /\ c7 g).
Proof.
  intros Hnd. rewrite (forall_attach_dict n_orig _ (fun on => origin_msgs U g on = []) Hnd).
  unfold c6, c7, per_node. rewrite <- forall_and. apply forall_iff. intros ne.
  rewrite <- forall_and. apply forall_iff. intros o. apply origin_msgs_nil.
Qed.

Lemma pass4_nil g : NoDup (parts n_dest (g_nodes g)) ->
  ((forall dn, In dn (dests_dict g) -> dest_msgs g dn = []) <-> c8 g /\ c9 g).
Proof.
  intros Hnd. rewrite (forall_attach_dict n_dest _ (fun dn => dest_msgs g dn = []) Hnd).
  unfold c8, c9, per_node. rewrite <- forall_and. apply forall_iff. intros ne.
  rewrite <- forall_and. apply forall_iff. intros d. apply dest_msgs_nil.
Qed.

(* C06, for every graph (the identifiers of its nodes need not even be distinct) *)
Theorem valid_iff_nine U g : validb U g = true <-> nine_conditions U g.
Proof.
  unfold nine_conditions. split.
  - intros V. apply validb_passes in V. destruct V as (C1 & N & O & D). apply counted_nodup in C1.
    apply pass2_nil in N. apply pass3_nil in O; [|apply C1]. apply pass4_nil in D; [|apply C1].
    destruct N as (C2 & C3 & C4 & C5), O, D. auto 10.
  - intros (C1 & C2 & C3 & C4 & C5 & C6 & C7 & C8 & C9). apply validb_passes.
    split; [apply counted_nodup, C1|]. split; [apply pass2_nil; auto|].
    split; [apply pass3_nil|apply pass4_nil]; auto; apply C1.
Qed.

Theorem validation_is_nine_conditions_proof : validation_is_nine_conditions.
Proof. intros U g W. apply valid_iff_nine. Qed.

Theorem verdict_consistent_proof : verdict_consistent.
Proof.
  intros U g. unfold is_valid, validb. destruct (is_valid_msgs U g) as [|m ms]; simpl; repeat split; try congruence.
  intros m' [= <-]. exists ms. reflexivity.
Qed.

Section Valid.
Variable U : universe.
Variable g : graph.
Hypothesis WFG : wf_graph g.
Hypothesis V : validb U g = true.

Lemma nine : nine_conditions U g.
Proof. apply valid_iff_nine, V. Qed.

Lemma v_link e : In e (g_edges g) -> nodes_of_link g (e_link e) = Some (e_up e, e_down e).
Proof. intros He. apply nodes_of_link_edge; [apply nine|apply edges_links; assumption]. Qed.

(* origin_at / origins_dict at n_orig, dest_at / dests_dict at n_dest *)
Lemma v_dict sel n o : NoDup (parts sel (g_nodes g)) ->
  attached sel g n = Some o -> dict_get o (attach_dict sel (g_nodes g)) = Some n.
Proof.
  intros Hp H. apply attached_Some in H; [|apply WFG]. destruct H as (ne & Hne & <- & Ho).
  apply attach_dict_get_once; assumption.
Qed.

Lemma v_dict_inv sel o : In o (map fst (attach_dict sel (g_nodes g))) -> exists n, attached sel g n = Some o.
Proof.
  intros H. apply in_map_iff in H. destruct H as ([o' n] & <- & H). apply attach_dict_In in H.
  destruct H as (ne & Hne & Ho & Hn). exists n. apply attached_Some; [apply WFG|eauto].
Qed.

(* the node of an origin has one leaving link, the node of a destination one entering link: at most one (c7, c8),
   and with none it would carry the other attachment too (c5, c4), which c2 excludes *)
Lemma v_one (sel sel' : node_entry -> option nat) (lnk : graph -> nat -> list edge) n a :
  per_node g (fun ne => sel ne <> None -> sel' ne <> None -> False) ->
  per_node g (fun ne => lnk g (nid ne) = [] -> sel' ne <> None) ->
  per_node g (fun ne => forall a, sel ne = Some a -> length (lnk g (nid ne)) <= 1) ->
  attached sel g n = Some a -> exists e1, lnk g n = [e1].
Proof.
  intros C2 C5 C7 H. apply attached_Some in H; [|apply WFG]. destruct H as (ne & Hne & <- & Ha).
  destruct (length_le_1 _ (C7 ne Hne a Ha)) as [E|E]; [|exact E].
  destruct (C2 ne Hne); [congruence|exact (C5 ne Hne E)].
Qed.
Lemma v_dest_out n d : dest_at g n = Some d -> out_links g n = [].
Proof.
  intros H. apply (attached_Some n_dest) in H; [|apply WFG]. destruct H as (ne & Hne & <- & Hd).
  destruct nine as (_ & _ & _ & _ & _ & _ & _ & _ & C9). exact (C9 ne Hne d Hd).
Qed.

(* a link's end without the attachment of its side (origin upstream, destination downstream) has a link on the
   other side *)
Lemma v_end sel (lnk : graph -> nat -> list edge) n : In n (map nid (g_nodes g)) ->
  per_node g (fun ne => lnk g (nid ne) = [] -> sel ne <> None) -> attached sel g n = None -> lnk g n <> [].
Proof.
  intros Hn C Ho Hl. apply in_map_iff in Hn. destruct Hn as (ne & <- & Hne).
  apply (C ne Hne Hl). rewrite <- Ho. symmetry. apply attached_at; [apply WFG|exact Hne|reflexivity].
Qed.

Theorem validb_vfacts : vfacts U g.
Proof.
  constructor.
  - exact v_link.
  - apply links_edges.
  - intros n o. apply (v_dict n_orig), nine.
  - exact (v_dict_inv n_orig).
  - intros n d. apply (v_dict n_dest), nine.
  - intros n o. apply (v_one n_orig n_dest out_links); [intros ne Hne A B; exact (proj1 (proj2 nine) ne Hne (conj A B))|apply nine..].
  - intros n d. apply (v_one n_dest n_orig in_links); [intros ne Hne A B; exact (proj1 (proj2 nine) ne Hne (conj B A))|apply nine..].
  - exact v_dest_out.
  - intros e He. apply (v_end n_orig in_links); [apply WFG, He|apply nine].
  - intros e He. apply (v_end n_dest out_links); [apply WFG, He|apply nine].
Qed.
End Valid.
