(* GraphFacts.v — what the look-ups of Graph.v return: membership in out_links / in_links / links,
   find_node and the attachments under distinct node ids, nodes_of_link, and the dictionaries
   origins_dict / dests_dict (one fold, parametrised by the attribute it collects). *)
From Coq Require Import List Arith.
From SM Require Import Graph.
From SM.specs Require Import GraphWF.
From SM.proofs Require Export ListFacts.
Import ListNotations.

Lemma In_out_links g n e : In e (out_links g n) <-> In e (g_edges g) /\ e_up e = n.
Proof. unfold out_links. rewrite filter_In, Nat.eqb_eq. reflexivity. Qed.
Lemma In_in_links g n e : In e (in_links g n) <-> In e (g_edges g) /\ e_down e = n.
Proof. unfold in_links. rewrite filter_In, Nat.eqb_eq. reflexivity. Qed.

Lemma In_links g e : In e (links g) <-> In e (g_edges g) /\ In (e_up e) (map nid (g_nodes g)).
Proof.
  unfold links. split.
  - intros H. apply in_flat_map in H. destruct H as (ne & Hne & He). apply In_out_links in He.
    destruct He as [He ->]. split; [exact He|apply in_map, Hne].
  - intros (He & Hu). apply in_map_iff in Hu. destruct Hu as (ne & E & Hne). apply in_flat_map.
    exists ne. split; [exact Hne|]. apply In_out_links. auto.
Qed.
Lemma links_edges g e : In e (links g) -> In e (g_edges g).
Proof. intros H. apply In_links in H. apply H. Qed.
Lemma edges_links g e : wf_graph g -> In e (g_edges g) -> In e (links g).
Proof. intros W He. apply In_links. split; [exact He|]. apply W, He. Qed.

Lemma out_single g e e1 : In e (g_edges g) -> out_links g (e_up e) = [e1] -> e1 = e.
Proof.
  intros He Hout. assert (H : In e (out_links g (e_up e))) by (apply In_out_links; auto).
  rewrite Hout in H. destruct H as [H|[]]. exact H.
Qed.
Lemma in_single g e e1 : In e (g_edges g) -> in_links g (e_down e) = [e1] -> e1 = e.
Proof.
  intros He Hin. assert (H : In e (in_links g (e_down e))) by (apply In_in_links; auto).
  rewrite Hin in H. destruct H as [H|[]]. exact H.
Qed.

Lemma nodes_of_link_Some g m u d : nodes_of_link g m = Some (u, d) ->
  exists e, In e (links g) /\ e_link e = m /\ e_up e = u /\ e_down e = d.
Proof.
  unfold nodes_of_link. destruct (find _ _) as [e|] eqn:F; [|discriminate]. intros [= <- <-].
  apply (kfind_Some e_link Nat.eqb Nat.eqb_eq) in F. destruct F as [Hin E]. apply in_rev in Hin. eauto.
Qed.
Lemma nodes_of_link_edge g e :
  NoDup (map e_link (links g)) -> In e (links g) -> nodes_of_link g (e_link e) = Some (e_up e, e_down e).
Proof.
  intros Hnd He. unfold nodes_of_link.
  assert (F : find (fun e0 => e_link e0 =? e_link e) (rev (links g)) = Some e).
  { apply (kfind_iff e_link Nat.eqb Nat.eqb_eq); [rewrite map_rev; apply NoDup_rev, Hnd|]. rewrite <- in_rev. auto. }
  rewrite F. reflexivity.
Qed.

Lemma nodes_of_link_out g m u d : nodes_of_link g m = Some (u, d) -> out_links g u <> [].
Proof.
  intros H. apply nodes_of_link_Some in H. destruct H as (e & He & _ & <- & _). apply links_edges in He.
  intros Hn. assert (Hx : In e (out_links g (e_up e))) by (apply In_out_links; auto).
  rewrite Hn in Hx. destruct Hx.
Qed.

Lemma find_node_iff g n ne : NoDup (map nid (g_nodes g)) ->
  (find_node g n = Some ne <-> In ne (g_nodes g) /\ nid ne = n).
Proof. apply (kfind_iff nid Nat.eqb Nat.eqb_eq). Qed.

(* origin_at is attached n_orig, dest_at is attached n_dest *)
Definition attached (sel : node_entry -> option nat) (g : graph) (n : nat) : option nat :=
  match find_node g n with Some ne => sel ne | None => None end.

Lemma attached_at sel g n ne : NoDup (map nid (g_nodes g)) -> In ne (g_nodes g) -> nid ne = n ->
  attached sel g n = sel ne.
Proof. intros Hnd Hne Hid. unfold attached. rewrite (proj2 (find_node_iff g n ne Hnd) (conj Hne Hid)). reflexivity. Qed.

Lemma attached_Some sel g n o : NoDup (map nid (g_nodes g)) ->
  (attached sel g n = Some o <-> exists ne, In ne (g_nodes g) /\ nid ne = n /\ sel ne = Some o).
Proof.
  intros Hnd. split.
  - unfold attached. destruct (find_node g n) as [ne|] eqn:F; [|discriminate]. apply (find_node_iff _ _ _ Hnd) in F.
    intros H. exists ne. tauto.
  - intros (ne & Hne & Hid & <-). apply attached_at; assumption.
Qed.

Lemma dict_get_set k v k' d :
  dict_get k' (dict_set k v d) = if Nat.eqb k k' then Some v else dict_get k' d.
Proof.
  induction d as [|[a b] d IH]; simpl; [reflexivity|].
  destruct (Nat.eqb_spec a k) as [->|Hak]; simpl; [destruct (Nat.eqb k k'); reflexivity|].
  rewrite IH. destruct (Nat.eqb_spec a k') as [->|]; [|reflexivity].
  destruct (Nat.eqb_spec k k') as [->|]; [congruence|reflexivity].
Qed.

Lemma dict_get_In k v d : dict_get k d = Some v -> In (k, v) d.
Proof.
  induction d as [|[a b] d IH]; simpl; [discriminate|].
  destruct (Nat.eqb_spec a k) as [->|]; intros H.
  - inversion H; subst. left. reflexivity.
  - right. apply IH. exact H.
Qed.

Lemma dict_set_In k v d k' v' : In (k', v') (dict_set k v d) -> (k' = k /\ v' = v) \/ In (k', v') d.
Proof.
  induction d as [|[a b] d IH]; simpl.
  - intros [H|[]]. inversion H. auto.
  - destruct (Nat.eqb_spec a k) as [->|Hne]; simpl; intros [H|H]; auto.
    + inversion H. auto.
    + destruct (IH H); auto.
Qed.

(* origins_dict g = attach_dict n_orig (g_nodes g) and dests_dict g = attach_dict n_dest (g_nodes g), by
   computation: the attribute's value is the key, the node the value, a later node overwrites *)
Section Attach.
Variable sel : node_entry -> option nat.
Definition dstep (d : list (nat * nat)) (ne : node_entry) :=
  match sel ne with Some o => dict_set o (nid ne) d | None => d end.
Definition attach_dict (nodes : list node_entry) := fold_left dstep nodes [].
Definition has (o : nat) (ne : node_entry) : bool :=
  match sel ne with Some o' => Nat.eqb o' o | None => false end.

Lemma has_true o ne : has o ne = true <-> sel ne = Some o.
Proof.
  unfold has. destruct (sel ne) as [o'|]; [|split; discriminate].
  rewrite Nat.eqb_eq. split; congruence.
Qed.

Lemma dict_get_fold o nodes d :
  dict_get o (fold_left dstep nodes d) =
  match find (has o) (rev nodes) with
  | Some ne => Some (nid ne)
  | None => dict_get o d
  end.
Proof.
  revert d; induction nodes as [|ne nodes IH]; intros d; [reflexivity|].
  simpl fold_left. rewrite IH. simpl rev. rewrite find_app.
  destruct (find (has o) (rev nodes)) as [x|]; [reflexivity|].
  simpl. unfold dstep, has. destruct (sel ne) as [o'|]; [|reflexivity].
  rewrite dict_get_set. destruct (Nat.eqb o' o); reflexivity.
Qed.

Lemma attach_dict_In nodes o n :
  In (o, n) (attach_dict nodes) -> exists ne, In ne nodes /\ sel ne = Some o /\ nid ne = n.
Proof.
  revert o n. apply (fold_left_inv (fun d => forall o n, In (o, n) d -> exists ne, In ne nodes /\ sel ne = Some o /\ nid ne = n)).
  - intros d ne Hne Hd o n H. unfold dstep in H. destruct (sel ne) as [o'|] eqn:S; [|auto].
    destruct (dict_set_In _ _ _ _ _ H) as [[-> ->]|H']; eauto.
  - intros o n [].
Qed.

Lemma attach_dict_get nodes ne o :
  In ne nodes -> sel ne = Some o -> (forall ne', In ne' nodes -> sel ne' = Some o -> ne' = ne) ->
  dict_get o (attach_dict nodes) = Some (nid ne).
Proof.
  intros Hne Ho Hone. unfold attach_dict. rewrite dict_get_fold.
  destruct (find (has o) (rev nodes)) as [ne'|] eqn:F.
  - apply find_some in F. rewrite <- in_rev, has_true in F. rewrite (Hone ne') by apply F. reflexivity.
  - apply in_rev in Hne. apply (find_none _ _ F) in Hne. apply has_true in Ho. congruence.
Qed.
End Attach.
