(* EnginesEq.v — the two *generated* engine modules define the same functions.
   Proved for every numeric structure (hence at R, at the partial reals and on
   expression trees).  Any edit of one engine file changes the statement proved. *)
From Coq Require Import List FunctionalExtensionality.
From SM Require Import Num Engine.
From SM.gen Require Import EnginesNp EnginesCs.
From SM.specs Require Import C15_spec.
Import ListNotations.

Section Poly.
Context {A : Type} {NA : Num A}.

(* The primitives that test optional or list arguments are compared by cases on what is given, so that neither the
   order of those tests in either file matters nor casadi's extra `if vsl:` (casadi cannot index with an empty list;
   numpy's scatters nothing into Veq then).  The other fifteen are the same terms. *)
Lemma eq_links_controlled_Veq r vc vsl al vf rc a :
  Np.links_controlled_Veq r vc vsl al vf rc a = Cs.links_controlled_Veq r vc vsl al vf rc a.
Proof. destruct vsl; reflexivity. Qed.
Lemma eq_links_step_speed v vu r rd V l L tau eta kappa T qr de ld ph rc :
  Np.links_step_speed v vu r rd V l L tau eta kappa T qr de ld ph rc =
  Cs.links_step_speed v vu r rd V l L tau eta kappa T qr de ld ph rc.
Proof. destruct qr, de, ld, ph, rc; reflexivity. Qed.
Lemma eq_nodes_get_upstream_flow ql b bs qo :
  Np.nodes_get_upstream_flow ql b bs qo = Cs.nodes_get_upstream_flow ql b bs qo.
Proof. destruct qo; reflexivity. Qed.

Theorem engines_agree_all : engines_agree.
Proof.
  unfold engines_agree. repeat match goal with |- _ /\ _ => split end; intros;
    first [apply eq_links_controlled_Veq|apply eq_links_step_speed|apply eq_nodes_get_upstream_flow|reflexivity].
Qed.

(* hence the two engine records are one (by functional extensionality in those three fields).  Every theorem about
   cs_engine is the theorem about np_engine rewritten with this. *)
Lemma cs_engine_eq_np : @cs_engine A NA = @np_engine A NA.
Proof.
  unfold cs_engine, np_engine.
  replace (@Cs.links_controlled_Veq A NA) with (@Np.links_controlled_Veq A NA)
    by (repeat (apply functional_extensionality; intro); apply eq_links_controlled_Veq).
  replace (@Cs.links_step_speed A NA) with (@Np.links_step_speed A NA)
    by (repeat (apply functional_extensionality; intro); apply eq_links_step_speed).
  replace (@Cs.nodes_get_upstream_flow A NA) with (@Np.nodes_get_upstream_flow A NA)
    by (repeat (apply functional_extensionality; intro); apply eq_nodes_get_upstream_flow).
  reflexivity.
Qed.

End Poly.
