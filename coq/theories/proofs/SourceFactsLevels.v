From Coq Require Import List Bool Lia.
From SM.gen Require Import Tables.
From SM.specs Require Import SourceFacts_spec.

(* whatever comparisons the helpers use (<=, <, ==, >, >=): split on each test, arithmetic decides *)
Ltac split_ifs := repeat match goal with |- context [if ?b then _ else _] => destruct b eqn:? end.
Theorem helpers_use_documented_levels_proof : helpers_use_documented_levels.
Proof.
  intros c. unfold gen_level_inputs, gen_level_outputs, gen_level_flows, gen_level_parameters, doc_level.
  repeat split; split_ifs; cbn [Nat.min]; lia.
Qed.
Theorem model_level_is_documented_proof : model_level_is_documented.
Proof. intros n. unfold doc_level. split_ifs; lia. Qed.
Theorem parameters_separate_iff_level_le_0_proof : parameters_separate_iff_level_le_0.
Proof. intros c. unfold gen_level_parameters. split_ifs; lia. Qed.
