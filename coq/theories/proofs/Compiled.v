From Coq Require Import Reals List.
From SM Require Import NumR Engine Expr Types Blocks ToFunction.
From SM.specs Require Import C03_spec.
From SM.proofs Require Import Homomorphism EnginesEq Regroup.
Import ListNotations.

Lemma state_rel env (st : state expr) :
  SM_o_Types_o_state_R expr R (rho env) st (eval_state env st).
Proof.
  destruct st. unfold eval_state. simpl. constructor; intros a b H; apply nat_R_eq in H; subst;
    unfold rho; try reflexivity; apply list_R_map_r; reflexivity.
Qed.
Lemma params_rel env (P : params expr) :
  SM_o_Types_o_params_R expr R (rho env) P (eval_params env P).
Proof.
  destruct P. unfold eval_params. simpl. constructor; unfold rho; try reflexivity.
  - intros a b H p q Hp. apply nat_R_eq in H. apply lpar_R_eq in Hp. subst. reflexivity.
  - intros a b H. apply nat_R_eq in H. subst. reflexivity.
  - destruct gdelta; constructor. reflexivity.
  - destruct gphi; constructor. reflexivity.
Qed.

Lemma eval_cs_step env U (P : params expr) g opts (st : state expr) :
  eval_res env (network_step cs_engine U P g opts st) = network_step cs_engine U (eval_params env P) g opts (eval_state env st).
Proof. exact (eval_step env cs_engine cs_engine (cs_engine_rho env) U P _ g opts st _ (params_rel env P) (state_rel env st)). Qed.

(* the three layouts are natural in the values: regrouping and stacking commute with a map over them *)
Lemma next_entries_map {A B} (f : A -> B) (out : step_out (A:=A)) :
  next_entries {| o_links := map (fun x => (fst x, (map f (fst (snd x)), map f (snd (snd x))))) (o_links out);
                  o_queues := map (fun x => (fst x, option_map f (snd x))) (o_queues out) |}
  = map (fun x => (fst x, map f (snd x))) (next_entries out).
Proof.
  unfold next_entries. cbn [o_links o_queues]. rewrite map_app. apply f_equal2; rewrite flat_map_map, map_flat_map.
  - reflexivity.
  - apply flat_map_ext. intros [o [w|]]; reflexivity.
Qed.

Lemma state_outputs_eval env nm c (out : step_out (A:=expr)) :
  state_outputs nm c (eval_out env out) = eval_named env (state_outputs nm c out).
Proof.
  assert (L1 : outputs_level1 (eval_out env out) = eval_named env (outputs_level1 out)).
  { unfold outputs_level1, eval_named, eval_out. rewrite next_entries_map, map_map. cbn [fst snd].
    rewrite <- regroup_map, map_map. reflexivity. }
  destruct c as [|[|c]]; cbn [state_outputs].
  - unfold outputs_level0, eval_named, eval_out. rewrite next_entries_map, !map_map. reflexivity.
  - exact L1.
  - unfold outputs_level2. rewrite L1. unfold eval_named. cbn [map fst snd]. rewrite concat_map, !map_map. reflexivity.
Qed.

Theorem compiled_is_numpy_step_proof : compiled_is_numpy_step.
Proof.
  intros env nm U P g opts c. unfold tf_outputs, st0.
  rewrite <- (@cs_engine_eq_np R NumR), <- eval_cs_step.
  destruct (network_step cs_engine U P g opts (net_state U g)) as [out|e]; simpl; [|reflexivity].
  rewrite state_outputs_eval. reflexivity.
Qed.

Theorem symbolic_parameters_are_values_proof : symbolic_parameters_are_values.
Proof.
  intros env nm U P P' g opts c HP.
  rewrite !compiled_is_numpy_step_proof, HP. reflexivity.
Qed.

Theorem parameters_trail_in_order_proof : parameters_trail_in_order.
Proof.
  intros nm U g c ps. eexists. split; [reflexivity|]. split; [|split].
  - unfold tf_inputs. cbn [param_inputs]. rewrite app_nil_r. reflexivity.
  - apply param_inputs_flat.
  - intros ->. destruct ps as [|p ps]; [reflexivity|]. cbn [param_inputs]. rewrite map_map. reflexivity.
Qed.
