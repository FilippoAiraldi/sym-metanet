(* Closed.v — every symbol occurring in a result of the compiled function is one of its
   arguments (C04a).  Second instantiation of the Paramcoq abstraction theorem: relate an
   expression tree to the unit value when all its symbols lie in S. *)
From Coq Require Import List String Permutation.
From SM Require Import Num Graph Engine Expr Types Blocks Validity ToFunction.
From SM.proofs Require Import Homomorphism Regroup BlocksFacts.
Import ListNotations.

#[local] Instance NumUnit : Num unit := {|
  ofQ := fun _ => tt; add := fun _ _ => tt; sub := fun _ _ => tt; mul := fun _ _ => tt;
  div := fun _ _ => tt; neg := fun _ => tt; sq := fun _ => tt; nexp := fun _ => tt;
  nlog := fun _ => tt; npow := fun _ _ => tt; nmin := fun _ _ => tt; nmax := fun _ _ => tt;
  iflt := fun _ _ _ _ => tt |}.

Section Closed.
Variable S : list ident.
Definition cl (e : expr) (_ : unit) : Prop := incl (vars e) S.
Definition closed (e : expr) : Prop := incl (vars e) S.

Lemma incl_app3 {T} (a b c : list T) s : incl a s -> incl b s -> incl c s -> incl (a ++ b ++ c) s.
Proof. intros. repeat apply incl_app; assumption. Qed.

Lemma Num_cl : SM_o_Num_o_Num_R expr unit cl NumExpr NumUnit.
Proof.
  unfold NumExpr, NumUnit, cl. constructor; simpl; intros;
    repeat apply incl_app; try assumption; try (intros x []).
Qed.

Definition cs_engine_cl := SM_o_Engine_o_cs_engine_R expr unit cl NumExpr NumUnit Num_cl.
Definition np_engine_cl := SM_o_Engine_o_np_engine_R expr unit cl NumExpr NumUnit Num_cl.

Definition unit_state (st : state expr) : state unit :=
  {| s_rho := fun m => map (fun _ => tt) (s_rho st m); s_v := fun m => map (fun _ => tt) (s_v st m);
     s_w := fun _ => tt; s_uo := fun _ => tt; s_do := fun _ => tt;
     s_vc := fun m => map (fun _ => tt) (s_vc st m); s_dd := fun _ => tt |}.
Definition unit_params (P : params expr) : params unit :=
  {| lp := fun _ _ => tt; ocap := fun _ => tt; gT := tt; gtau := tt; geta := tt; gkappa := tt;
     gdelta := option_map (fun _ => tt) (gdelta P); gphi := option_map (fun _ => tt) (gphi P) |}.

Definition state_closed (st : state expr) : Prop :=
  (forall m, Forall closed (s_rho st m)) /\ (forall m, Forall closed (s_v st m)) /\
  (forall o, closed (s_w st o)) /\ (forall o, closed (s_uo st o)) /\ (forall o, closed (s_do st o)) /\
  (forall m, Forall closed (s_vc st m)) /\ (forall d, closed (s_dd st d)).
Definition params_closed (P : params expr) : Prop :=
  (forall l p, incl (vars (lp P l p)) S) /\ (forall o, incl (vars (ocap P o)) S) /\
  incl (vars (gT P)) S /\ incl (vars (gtau P)) S /\ incl (vars (geta P)) S /\ incl (vars (gkappa P)) S /\
  (forall x, gdelta P = Some x -> incl (vars x) S) /\ (forall x, gphi P = Some x -> incl (vars x) S).

Lemma list_cl_inv l u : list_R expr unit cl l u -> Forall closed l.
Proof. apply list_R_Forall. intros a b H. exact H. Qed.

Lemma state_cl st : state_closed st -> SM_o_Types_o_state_R expr unit cl st (unit_state st).
Proof.
  intros (H1 & H2 & H3 & H4 & H5 & H6 & H7). destruct st. unfold unit_state. simpl in *.
  constructor; intros a b H; apply nat_R_eq in H; subst; try (apply list_R_map_r, Forall_forall); unfold cl, closed in *; auto.
Qed.
Lemma params_cl P : params_closed P -> SM_o_Types_o_params_R expr unit cl P (unit_params P).
Proof.
  intros (H1 & H2 & H3 & H4 & H5 & H6 & H7 & H8). destruct P. unfold unit_params. simpl in *.
  constructor; unfold cl; auto.
  - destruct gdelta; constructor. apply H7. reflexivity.
  - destruct gphi; constructor. apply H8. reflexivity.
Qed.

(* what the abstraction theorem at cl says of a step result: all its values are closed *)
Lemma step_out_closed (E : engine expr) (Eu : engine unit) U P g opts st out :
  SM_o_Engine_o_engine_R expr unit cl E Eu -> state_closed st -> params_closed P ->
  network_step E U P g opts st = Ok out -> Forall closed (flat (next_entries out)).
Proof.
  intros HE Hst HP Hs.
  pose proof (SM_o_Blocks_o_network_step_R expr unit cl NumExpr NumUnit Num_cl E Eu HE U U
                (universe_R_refl U) P (unit_params P) (params_cl P HP) g g (graph_R_refl g) opts opts
                (options_R_refl opts) st (unit_state st) (state_cl st Hst)) as H.
  destruct H as [o1 o2 [l1 l2 Hl q1 q2 Hq]|]; [|discriminate Hs]. injection Hs as <-.
  unfold next_entries. cbn [o_links o_queues]. rewrite flat_app, !flat_flat_map.
  apply Forall_app. split; apply Forall_flat_map.
  - revert Hl. apply list_R_Forall. intros x1 x2 [n1 n2 Hn p1 p2 [a1 a2 Ha b1 b2 Hb]]. cbn.
    rewrite app_nil_r. apply Forall_app. split; eapply list_cl_inv; eassumption.
  - revert Hq. apply list_R_Forall. intros x1 x2 [n1 n2 Hn p1 p2 [a1 a2 Ha|]]; cbn; repeat constructor. exact Ha.
Qed.

Lemma closed_named (l : list (string * list expr)) :
  Forall closed (flat l) -> forall n v e, In (n, v) l -> In e v -> incl (vars e) S.
Proof. intros H n v e Hl He. apply (proj1 (Forall_forall _ _) H), In_flat. exists (n, v). split; assumption. Qed.
End Closed.

(* the arguments at every level: the declared symbols of the elements, then the parameters *)
Definition group_idents (U : universe) (g : graph) (gr : grp) : list ident := flat (group_entries U g gr).
Definition net_idents (U : universe) (g : graph) : list ident :=
  group_idents U g GX ++ group_idents U g GU ++ group_idents U g GD.

Lemma grp_eqb_eq a b : grp_eqb a b = true <-> a = b.
Proof. destruct a, b; split; (reflexivity || discriminate). Qed.

Lemma group_idents_spec U g gr x :
  In x (group_idents U g gr) <->
  exists el ve, In el (elements g) /\ In ve (elem_vars U el) /\ fst (fst ve) = gr /\ In x (snd ve).
Proof.
  unfold group_idents, group_entries. rewrite flat_flat_map, in_flat_map. split.
  - intros (el & Hel & Hx). rewrite flat_map_values in Hx. apply in_flat_map in Hx. destruct Hx as (ve & Hve & Hx).
    apply filter_In in Hve. destruct Hve as [Hve G]. apply grp_eqb_eq in G. eauto 6.
  - intros (el & ve & Hel & Hve & G & Hx). exists el. split; [exact Hel|]. rewrite flat_map_values. apply in_flat_map.
    exists ve. split; [|exact Hx]. apply filter_In. split; [exact Hve|]. apply grp_eqb_eq. exact G.
Qed.
Lemma net_idents_spec U g x :
  In x (net_idents U g) <-> exists el ve, In el (elements g) /\ In ve (elem_vars U el) /\ In x (snd ve).
Proof.
  unfold net_idents. rewrite !in_app_iff, !group_idents_spec. split.
  - intros [H|[H|H]]; destruct H as (el & ve & Hel & Hve & _ & Hx); exists el, ve; auto.
  - intros (el & ve & Hel & Hve & Hx). destruct (fst (fst ve)) eqn:G; [left|right; left|right; right]; exists el, ve; auto.
Qed.

(* Level 0 lays out the declared vectors as they are, levels 1 and 2 the same vectors regrouped by name. *)
Theorem tf_inputs_flat nm U g c ps : Permutation (flat (tf_inputs nm U g c ps)) (net_idents U g ++ map snd ps).
Proof.
  unfold tf_inputs. rewrite flat_app, param_inputs_flat. apply Permutation_app_tail.
  assert (R : forall gr, Permutation (flat (regroup (map (fun x => (snd (fst x), snd x)) (group_entries U g gr))))
                                     (group_idents U g gr))
    by (intros gr; unfold group_idents; rewrite <- (flat_rekey (fun x => snd (fst x))); apply regroup_flat).
  unfold net_idents. destruct c as [|[|c]].
  - unfold inputs_level0, group_idents. cbn [flat_map]. rewrite app_nil_r, !flat_app, !flat_rekey. reflexivity.
  - unfold inputs_level1. cbn [flat_map]. rewrite app_nil_r, !flat_app. repeat apply Permutation_app; apply R.
  - unfold inputs_level2, flat at 1. cbn [map fst snd List.concat]. rewrite app_nil_r. repeat apply Permutation_app; apply R.
Qed.

Lemma In_elements g el :
  In el (elements g) <->
  match el with EL m => In m (link_ids g) | EO o => In o (origin_ids g) | ED d => In d (dest_ids g) end.
Proof.
  unfold elements. rewrite !in_app_iff, !in_map_iff. split.
  - intros [H|[H|H]]; destruct H as (n & <- & H); exact H.
  - destruct el; eauto 6.
Qed.
Lemma declared U g el : In el (elements g) -> incl (flat (elem_vars U el)) (net_idents U g).
Proof.
  intros Hel x Hx. apply In_flat in Hx. destruct Hx as (ve & Hve & Hx). apply net_idents_spec. eauto.
Qed.
Lemma origin_symbols U g o :
  mem o (origin_ids g) && is_queued (okind_of U o) = true -> incl [Que o; ActO o; DistO o] (net_idents U g).
Proof.
  intros B. apply andb_prop in B. destruct B as [M Q].
  replace [Que o; ActO o; DistO o] with (flat (elem_vars U (EO o)))
    by (cbn [elem_vars]; unfold origin_vars; destruct (okind_of U o); [discriminate Q|reflexivity..]).
  apply declared, In_elements, mem_In, M.
Qed.

Lemma Var_closed S (f : nat -> ident) l : incl (map f l) S -> Forall (closed S) (map (fun i => Var (f i)) l).
Proof. intros H. apply Forall_map, Forall_forall. intros i Hi x [<-|[]]. apply H, in_map, Hi. Qed.

Lemma net_state_closed U g S : incl (net_idents U g) S -> state_closed S (net_state U g).
Proof.
  intros Hi.
  assert (HL : forall m k (f : nat -> ident) l, mem m (link_ids g) = true -> In (k, map f l) (link_vars U m) ->
                 Forall (closed S) (map (fun i => Var (f i)) l)).
  { intros m k f l M Hve. apply Var_closed. intros x Hx.
    apply Hi, (declared U g (EL m)); [apply In_elements, mem_In, M|apply In_flat; exists (k, map f l); auto]. }
  assert (HO : forall o x, In x [Que o; ActO o; DistO o] ->
                 closed S (if mem o (origin_ids g) && is_queued (okind_of U o) then Var x else Cst 0)).
  { intros o x Hx. destruct (_ && _) eqn:B; [|intros y []]. intros y [<-|[]]. apply Hi, (origin_symbols U g o B), Hx. }
  unfold state_closed, net_state. cbn [s_rho s_v s_w s_uo s_do s_vc s_dd]. repeat split.
  - intros m. destruct (mem m (link_ids g)) eqn:M; [|constructor]. apply (HL m (GX, "rho"%string) _ _ M). left. reflexivity.
  - intros m. destruct (mem m (link_ids g)) eqn:M; [|constructor]. apply (HL m (GX, "v"%string) _ _ M). right. left. reflexivity.
  - intros o. apply HO. left. reflexivity.
  - intros o. apply HO. right. left. reflexivity.
  - intros o. apply HO. right. right. left. reflexivity.
  - intros m. destruct (mem m (link_ids g)) eqn:M; [|constructor].
    destruct (lvsl (linkd U m)) as [vsl|] eqn:V; [|constructor].
    apply (HL m (GU, "v_ctrl"%string) _ _ M). unfold link_vars. rewrite V. right. right. left. reflexivity.
  - intros d. destruct (mem d (dest_ids g)) eqn:M; [|intros x []]. destruct (dkind_of U d) eqn:K; [intros x []|].
    intros x [<-|[]]. apply Hi, (declared U g (ED d)); [apply In_elements, mem_In, M|].
    cbn [elem_vars]. unfold dest_vars. rewrite K. left. reflexivity.
Qed.

Lemma state_outputs_flat {A} nm c (out : step_out (A:=A)) :
  Permutation (flat (state_outputs nm c out)) (flat (next_entries out)).
Proof.
  assert (L1 : Permutation (flat (outputs_level1 out)) (flat (next_entries out)))
    by (unfold outputs_level1; rewrite regroup_flat, flat_rekey; reflexivity).
  destruct c as [|[|c]]; cbn [state_outputs]; [|exact L1|].
  - unfold outputs_level0. rewrite flat_rekey. reflexivity.
  - unfold outputs_level2. rewrite flat_one. exact L1.
Qed.

(* the recomputed flows: the abstraction theorem at cl for init_state, link_flow and origin_flow *)
Lemma flow_outputs_closed S (E : engine expr) (Eu : engine unit) nm U (P : params expr) g opts c fl :
  SM_o_Engine_o_engine_R expr unit (cl S) E Eu -> params_closed S P -> state_closed S (net_state U g) ->
  flow_outputs E nm U P g opts c = Ok fl -> Forall (closed S) (flat fl).
Proof.
  intros HE HP HS. unfold flow_outputs. destruct (origin_flow_entries E nm U P g opts) as [qo|] eqn:Hqo; [|discriminate].
  cbn [bind]. intros H. injection H as <-.
  (* every level lays out the link flows, then the origin flows *)
  replace (flat _) with (flat (link_flow_entries E nm U g opts) ++ flat qo)
    by (destruct c as [|[|c]]; [symmetry; apply flat_app| |]; unfold flat; cbn [map snd List.concat]; rewrite !app_nil_r;
        reflexivity).
  assert (Hst' : SM_o_Types_o_state_R expr unit (cl S) (st1 E U g opts) (init_state Eu opts (unit_state (net_state U g)))).
  { apply (SM_o_Blocks_o_init_state_R expr unit (cl S) NumExpr NumUnit (Num_cl S) E Eu HE opts opts (options_R_refl opts)).
    apply state_cl. exact HS. }
  apply Forall_app. split.
  - unfold link_flow_entries. rewrite flat_map_values. apply Forall_flat_map, Forall_forall. intros m _.
    apply (list_cl_inv S _ _ (SM_o_Blocks_o_link_flow_R expr unit (cl S) NumExpr NumUnit (Num_cl S) E Eu HE
             U U (universe_R_refl U) _ _ Hst' m m (nat_R_refl m))).
  - unfold flat. apply Forall_concat, Forall_map. revert Hqo. apply mapM_Forall. intros o y Hy.
    pose proof (SM_o_Blocks_o_origin_flow_R expr unit (cl S) NumExpr NumUnit (Num_cl S) E Eu HE
                  U U (universe_R_refl U) P _ (params_cl S P HP) g g (graph_R_refl g)
                  _ _ Hst' o o (nat_R_refl o)) as H.
    destruct (origin_flow E U P g (st1 E U g opts) o) as [q|]; [|discriminate]. injection Hy as <-.
    inversion H. repeat constructor. assumption.
Qed.

(* E: any engine related at cl to one over unit, as cs_engine_cl and np_engine_cl say of the two regenerated engines *)
Theorem tf_outputs_closed (E : engine expr) (Eu : engine unit) nm U (P : params expr) g opts c more ps outs :
  let S := flat (tf_inputs nm U g c ps) in
  SM_o_Engine_o_engine_R expr unit (cl S) E Eu -> params_closed S P ->
  tf_outputs E nm U P g opts c more = Ok outs ->
  Forall (closed S) (flat outs).
Proof.
  intros S HE HP Ht. unfold tf_outputs, st0 in Ht.
  assert (HS : state_closed S (net_state U g)).
  { apply net_state_closed. intros x Hx.
    apply (Permutation_in x (Permutation_sym (tf_inputs_flat nm U g c ps))), in_or_app. left. exact Hx. }
  destruct (network_step E U P g opts (net_state U g)) as [out|] eqn:Hs; [|discriminate].
  cbn [bind] in Ht.
  assert (Hx : Forall (closed S) (flat (state_outputs nm c out))).
  { apply (Permutation_Forall (Permutation_sym (state_outputs_flat nm c out))).
    exact (step_out_closed S E Eu U P g opts _ out HE HS HP Hs). }
  destruct more; [|injection Ht as <-; exact Hx].
  destruct (flow_outputs E nm U P g opts c) as [fl|] eqn:Hf; [|discriminate]. injection Ht as <-.
  rewrite flat_app. apply Forall_app. split; [exact Hx|]. exact (flow_outputs_closed S E Eu nm U P g opts c fl HE HP HS Hf).
Qed.
