(* Finite.v — C07's finiteness clause for a whole step (specs/C07fin_spec.v), from Lifted.v *)
From Coq Require Import Reals Lia Lra.
From SM Require Import Num NumR NumPR Graph Engine Expr Types Blocks Validity.
From SM.gen Require Import EnginesNp.
From SM.specs Require Import GraphWF C01_spec C07fin_spec.
From SM.proofs Require Import VecR PrimR EnginesEq GraphFacts BlocksFacts Lifted Steppable.
From Coq Require Import List.
Import ListNotations.
Local Open Scope R_scope.

Lemma exiting_link_inv g o m :
  exiting_link g o = Ok m -> exists n e, dict_get o (origins_dict g) = Some n /\ out_links g n = [e] /\ m = e_link e.
Proof.
  unfold exiting_link. destruct (dict_get o (origins_dict g)) as [n|]; [|discriminate].
  destruct (out_links g n) as [|e [|e' l]] eqn:Hout; try discriminate. intros H. inversion H.
  exists n, e. split; [reflexivity|]. split; [exact Hout|reflexivity].
Qed.

Lemma last_flow_model U st m :
  (1 <= List.length (s_v st m))%nat -> List.length (s_rho st m) = List.length (s_v st m) ->
  vlast (link_flow (@np_engine R NumR) U st m) = last_flow U st m.
Proof.
  intros H1 H2. unfold link_flow, last_flow. cbn [e_flow np_engine].
  remember (List.length (s_v st m)) as n eqn:Hn.
  rewrite (tab_nth (s_rho st m) n 0 H2), (tab_nth (s_v st m) n 0 (eq_sym Hn)).
  rewrite np_get_flow_tab, !vlast_tab by exact H1. reflexivity.
Qed.

(* field by field the two records ask the same, but for the origins (named by their link there, found through
   exiting_link here) and the merge (rho v lanes of the last segment there, the engine's flow here) *)
Lemma admissible_model U P g st : admissible_inputs U P g st -> admissible U P g st.
Proof.
  intros [HT Htau Hk Hlink Ho Hturn Hm Hb]. constructor; try assumption.
  - intros o m Hex. destruct (exiting_link_inv g o m Hex) as (n & e & Hd & Hout & ->). exact (Ho o n e Hd Hout).
  - intros n Hn. unfold merge_inflow. rewrite (map_ext_in _ (fun e => last_flow U st (e_link e))); [exact (Hm n Hn)|].
    intros e He. apply In_in_links in He. destruct (Hlink e (proj1 He)) as (_ & _ & _ & _ & _ & H1 & H2).
    apply last_flow_model; assumption.
Qed.

Theorem np_step_commutes_with_injection :
  step_commutes_with_injection (@np_engine PR NumPR) (@np_engine R NumR).
Proof. intros U P g opts st A. apply network_step_lift. apply admissible_model. exact A. Qed.

Theorem np_every_output_finite : every_output_finite (@np_engine PR NumPR) (@np_engine R NumR).
Proof.
  intros U P g opts st WFG V WL HT A.
  assert (HR : forall e, In e (g_edges g) -> lp P (e_link e) Prhocrit <> 0).
  { intros e He. destruct (ai_link _ _ _ _ A e He) as (_ & _ & _ & H & _). apply Rgt_not_eq. exact H. }
  destruct (np_steps_with_all_options U P g st opts WFG V WL HT HR) as (out & S & _).
  exists out. split; [exact S|]. rewrite (np_step_commutes_with_injection U P g opts st A), S. reflexivity.
Qed.

(* the hypotheses are satisfiable with exact zeros: a merge of two links into one, the second entering link
   empty and at standstill (rho = v = 0), a mainstream origin with zero speed limit *)
Definition exU : universe :=
  {| linkd := fun _ => {| lN := 1; llanes := 2; lvsl := None |}; okind_of := fun _ => OMain; dkind_of := fun _ => DFree |}.
Definition exP : params R :=
  {| lp := fun _ p => match p with PL => 1 | Prhomax => 180 | Prhocrit => 30 | Pvfree => 100 | Pa => 2 | Pturn => 1 | Palpha => 0 end;
     ocap := fun _ => 2000; gT := 1; gtau := 1; geta := 60; gkappa := 40; gdelta := None; gphi := None |}.
Definition exG : graph :=
  {| g_nodes := [ {| nid := 0; n_orig := Some 0%nat; n_dest := None |}; {| nid := 1; n_orig := Some 1%nat; n_dest := None |};
                  {| nid := 2; n_orig := None; n_dest := None |}; {| nid := 3; n_orig := None; n_dest := Some 0%nat |} ];
     g_edges := [ {| e_up := 0; e_down := 2; e_link := 0 |}; {| e_up := 1; e_down := 2; e_link := 1 |};
                  {| e_up := 2; e_down := 3; e_link := 2 |} ] |}.
Definition exS : state R :=
  {| s_rho := fun m => match m with 1%nat => [0] | _ => [20] end; s_v := fun m => match m with 1%nat => [0] | _ => [80] end;
     s_w := fun _ => 0; s_uo := fun o => match o with 0%nat => 0 | _ => 90 end; s_do := fun _ => 1000;
     s_vc := fun _ => []; s_dd := fun _ => 0 |}.

Definition finite_example_meets_hypotheses : Prop :=
  wf_graph exG /\ validb exU exG = true /\
  (forall e, In e (g_edges exG) -> wf_link exU exS (e_link e)) /\
  (forall e, In e (g_edges exG) -> lp exP (e_link e) Pturn <> 0) /\
  admissible_inputs exU exP exG (init_state (@np_engine R NumR) no_options exS).

Lemma Q2R_2 : Q2R 2 = 2. Proof. unfold Q2R; simpl; lra. Qed.

Lemma finite_example_ok : finite_example_meets_hypotheses.
Proof.
  unfold finite_example_meets_hypotheses. split; [|split; [|split; [|split]]].
  - split; [simpl; repeat constructor; simpl; intuition lia|].
    apply Forall_forall. repeat apply Forall_cons; try apply Forall_nil; simpl; tauto.
  - vm_compute. reflexivity.
  - apply Forall_forall. repeat apply Forall_cons; try apply Forall_nil; unfold wf_link; simpl; repeat split; lia.
  - intros e _. simpl. lra.
  - rewrite (init_state_off _ false false false). constructor. 1-3: (simpl; lra).
    + apply Forall_forall. repeat apply Forall_cons; try apply Forall_nil; unfold link_ok;
        cbn [e_link s_rho s_v exS exP exU lp linkd llanes List.length]; rewrite Q2R_2;
        (repeat split; try lra; try lia; apply Forall_cons; [lra|apply Forall_nil]).
    + intros o n e _ _. unfold origin_ok. cbn [okind_of exU lp exP s_uo s_v exS].
      repeat split; try lra; [destruct o|destruct (e_link e) as [|[|m]]]; cbn; lra.
    + intros n Hne. destruct n as [|[|[|n]]]; cbn in Hne |- *; try (exfalso; apply Hne; reflexivity); lra.
    + intros n Hn. destruct n as [|[|[|[|n]]]]; cbn in Hn; try lia.
      cbn [in_links exG g_edges filter e_down Nat.eqb map e_link]. unfold last_flow.
      cbn [s_rho s_v exS vlast last linkd exU llanes vsum fold_left]. rewrite Q2R_2.
      change (@add R NumR) with Rplus. lra.
    + intros n Hd Hn. destruct n as [|[|[|n]]]; cbn in Hn; lia.
Qed.

Lemma max0_nonneg l : Forall (fun x => 0 <= x) l -> @Np.engine_max R NumR (@zero R NumR) l = l.
Proof.
  intros H. unfold Np.engine_max, sv. induction H as [|x l Hx Hl IH]; [reflexivity|]. cbn [map]. rewrite IH.
  f_equal. change (@nmax R NumR) with Rmax. rewrite zeroR. apply Rmax_right. exact Hx.
Qed.
Lemma init_state_nonneg opts st : nonnegative_state st -> init_state (@np_engine R NumR) opts st = st.
Proof.
  intros (Hr & Hv & Hw). apply state_ext; try reflexivity; intros x; cbn [init_state s_rho s_v s_w].
  - destruct (pi_rho opts); [|reflexivity]. apply max0_nonneg, Hr.
  - destruct (pi_v opts); [|reflexivity]. apply max0_nonneg, Hv.
  - destruct (pi_w opts); [|reflexivity]. apply (Rmax_right (Q2R 0)). rewrite Q2R_0. apply Hw.
Qed.

Theorem np_every_output_finite_from_nonnegative :
  every_output_finite_from_nonnegative (@np_engine PR NumPR) (@np_engine R NumR).
Proof.
  intros U P g opts st WFG V WL HT NN A. apply np_every_output_finite; try assumption.
  rewrite (init_state_nonneg opts st NN). exact A.
Qed.
