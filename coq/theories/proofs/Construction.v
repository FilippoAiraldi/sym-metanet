(* Construction.v — C09.  The node-adding calls of Construct.v are each one put into the node dictionary (put_node),
   add_link is two of them and a put into the edge dictionary: with ListFacts' kput this gives what every call does to
   the abstract view of C09_spec (prim_spec).  Then which paths add_path accepts (path_spec), and the invariant
   cwf /\ only_nodes_and_links along typed calls, under which the projection to Graph.v is a wf_graph. *)
From Coq Require Import List Arith Bool.
From SM Require Import Construct.
From SM.specs Require Import C09_spec GraphWF.
From SM.proofs Require Import ListFacts.
Import ListNotations.

Lemma obj_eqb_eq a b : obj_eqb a b = true <-> a = b.
Proof.
  split; [|intros <-; destruct a; apply Nat.eqb_refl].
  destruct a, b; simpl; intros H; try discriminate H; apply Nat.eqb_eq in H; subst; reflexivity.
Qed.

Definition nfind (l : list cnode) (x : obj) := find (fun c => obj_eqb (c_obj c) x) l.
Lemma nfind_none l x : ~ In x (map c_obj l) -> nfind l x = None.
Proof. intros H. apply (kfind_None c_obj obj_eqb). rewrite <- (kmem_In c_obj obj_eqb obj_eqb_eq) in H. destruct (kmem _ _ l x); congruence. Qed.

Lemma has_node_In g x : has_node g x = true <-> a_node g x.
Proof. apply (kmem_In c_obj obj_eqb obj_eqb_eq). Qed.

Definition blank (x : obj) : cnode := {| c_obj := x; c_orig := None; c_dest := None |}.
Definition put_node (f : cnode -> cnode) (x : obj) (g : cgraph) : cgraph :=
  if has_node g x then {| c_nodes := upd_node f x (c_nodes g); c_edges := c_edges g |}
  else {| c_nodes := c_nodes g ++ [f (blank x)]; c_edges := c_edges g |}.

Lemma put_node_nodes f x g : c_nodes (put_node f x g) = kput c_obj obj_eqb f (f (blank x)) x (c_nodes g).
Proof. unfold put_node, kput. change (kmem c_obj obj_eqb (c_nodes g) x) with (has_node g x). destruct (has_node g x); reflexivity. Qed.
Lemma put_node_edges f x g : c_edges (put_node f x g) = c_edges g.
Proof. unfold put_node. destruct (has_node g x); reflexivity. Qed.

Lemma add_node_put g x : add_node g x = put_node (fun c => c) x g.
Proof.
  unfold add_node, put_node. destruct (has_node g x); [|reflexivity]. destruct g as [ns es]. simpl. f_equal.
  induction ns as [|c ns IH]; simpl; [reflexivity|]. rewrite <- IH. destruct (obj_eqb (c_obj c) x); reflexivity.
Qed.
Definition set_orig (o : nat) (c : cnode) : cnode := {| c_obj := c_obj c; c_orig := Some o; c_dest := c_dest c |}.
Definition set_dest (d : nat) (c : cnode) : cnode := {| c_obj := c_obj c; c_orig := c_orig c; c_dest := Some d |}.
Lemma add_origin_put g o x : add_origin g o x = put_node (set_orig o) x g.
Proof. reflexivity. Qed.
Lemma add_destination_put g d x : add_destination g d x = put_node (set_dest d) x g.
Proof. reflexivity. Qed.

(* the attribute p of node y, None when y is no node: a_orig is attr c_orig, a_dest is attr c_dest *)
Definition attr (p : cnode -> option nat) (g : cgraph) (y : obj) : option nat :=
  match nfind (c_nodes g) y with Some c => p c | None => None end.

(* the node x as it stands before a call: what f is applied to *)
Definition entry (g : cgraph) (x : obj) : cnode := match nfind (c_nodes g) x with Some c => c | None => blank x end.

Section PutNode.
Variables (f : cnode -> cnode) (x : obj) (g : cgraph).
Hypothesis f_obj : forall c, c_obj (f c) = c_obj c.

Lemma a_node_put y : a_node (put_node f x g) y <-> y = x \/ a_node g y.
Proof. unfold a_node. rewrite put_node_nodes. apply (In_keys_kput c_obj obj_eqb obj_eqb_eq); [intros c <-|]; apply f_obj. Qed.

Lemma nfind_put y :
  nfind (c_nodes (put_node f x g)) y = if obj_eqb y x then Some (f (entry g x)) else nfind (c_nodes g) y.
Proof.
  unfold entry. rewrite put_node_nodes. change nfind with (kfind c_obj obj_eqb). rewrite (kfind_kput c_obj obj_eqb obj_eqb_eq) by (try intros c <-; apply f_obj).
  destruct (obj_eqb y x); [|reflexivity]. destruct (kfind _ _ _ x); reflexivity.
Qed.

(* what a put does to the abstract view: an attribute reads f's result at x, and one that f keeps is unchanged *)
Lemma put_node_spec (p q : cnode -> option nat) : (forall c, q (f c) = q c) -> q (blank x) = None ->
  (forall y, a_node (put_node f x g) y <-> y = x \/ a_node g y) /\
  (forall y, attr p (put_node f x g) y = if obj_eqb y x then p (f (entry g x)) else attr p g y) /\
  (forall y, attr q (put_node f x g) y = attr q g y) /\
  (forall u d, a_edge (put_node f x g) u d = a_edge g u d).
Proof.
  intros Hq Hb. split; [exact a_node_put|]. unfold attr, a_edge. rewrite put_node_edges.
  split; [intros y; rewrite nfind_put; destruct (obj_eqb y x); reflexivity|]. split; [|reflexivity].
  intros y. rewrite nfind_put. destruct (obj_eqb y x) eqn:E; [|reflexivity]. apply obj_eqb_eq in E. subst y. rewrite Hq.
  unfold entry. destruct (nfind (c_nodes g) x); [reflexivity|exact Hb].
Qed.
End PutNode.

Lemma add_node_spec g x :
  (forall y, a_node (add_node g x) y <-> y = x \/ a_node g y) /\
  (forall y, a_orig (add_node g x) y = a_orig g y) /\
  (forall y, a_dest (add_node g x) y = a_dest g y) /\
  (forall u d, a_edge (add_node g x) u d = a_edge g u d).
Proof.
  rewrite add_node_put.
  destruct (put_node_spec (fun c => c) x g (fun _ => eq_refl)) with (p := c_dest) (q := c_orig) as (N & _ & O & E); [reflexivity..|].
  destruct (put_node_spec (fun c => c) x g (fun _ => eq_refl)) with (p := c_orig) (q := c_dest) as (_ & _ & D & _); [reflexivity..|].
  exact (conj N (conj O (conj D E))).
Qed.

Lemma a_node_mono_add_node g x y : a_node g y -> a_node (add_node g x) y.
Proof. intros H. apply (proj1 (add_node_spec g x)). right. exact H. Qed.

Definition ends (e : cedge) : obj * obj := (c_up e, c_down e).
Definition ends_eqb (p q : obj * obj) : bool := obj_eqb (fst p) (fst q) && obj_eqb (snd p) (snd q).
Lemma ends_eqb_eq p q : ends_eqb p q = true <-> p = q.
Proof.
  destruct p, q. unfold ends_eqb. simpl. rewrite andb_true_iff, !obj_eqb_eq. split; [intros [-> ->]; reflexivity|intros [= -> ->]; auto].
Qed.

Section AddLink.
Variables (g : cgraph) (u l d : obj).
Let g2 := add_node (add_node g u) d.
Let e := {| c_up := u; c_down := d; c_link := l |}.

Lemma add_link_nodes : c_nodes (add_link g u l d) = c_nodes g2.
Proof. unfold add_link. fold g2. destruct (has_edge g2 u d); reflexivity. Qed.
Lemma add_link_edges : c_edges (add_link g u l d) = kput ends ends_eqb (fun _ => e) e (u, d) (c_edges g).
Proof.
  replace (c_edges g) with (c_edges g2) by (unfold g2; rewrite !add_node_put, !put_node_edges; reflexivity).
  unfold add_link. fold g2. unfold kput. change (kmem ends ends_eqb (c_edges g2) (u, d)) with (has_edge g2 u d).
  destruct (has_edge g2 u d); reflexivity.
Qed.

End AddLink.

Lemma a_edge_kfind g u d : a_edge g u d = option_map c_link (kfind ends ends_eqb (c_edges g) (u, d)).
Proof. reflexivity. Qed.

Lemma add_link_spec g u l d :
  (forall y, a_node (add_link g u l d) y <-> y = u \/ y = d \/ a_node g y) /\
  (forall u' d', a_edge (add_link g u l d) u' d' =
                 if obj_eqb u' u && obj_eqb d' d then Some l else a_edge g u' d') /\
  (forall y, a_orig (add_link g u l d) y = a_orig g y) /\
  (forall y, a_dest (add_link g u l d) y = a_dest g y).
Proof.
  destruct (add_node_spec g u) as (N1 & O1 & D1 & _). destruct (add_node_spec (add_node g u) d) as (N2 & O2 & D2 & _).
  split; [|split; [|split]].
  - intros y. unfold a_node at 1. rewrite add_link_nodes. rewrite (N2 y), (N1 y). split; intros [H|[H|H]]; auto.
  - intros u' d'. rewrite !a_edge_kfind, add_link_edges, (kfind_kput ends ends_eqb ends_eqb_eq) by reflexivity.
    change (ends_eqb (u', d') (u, d)) with (obj_eqb u' u && obj_eqb d' d).
    destruct (obj_eqb u' u && obj_eqb d' d); [|reflexivity]. destruct (kfind _ _ _ (u, d)); reflexivity.
  - intros y. unfold a_orig at 1. rewrite add_link_nodes. rewrite <- (O1 y). apply O2.
  - intros y. unfold a_dest at 1. rewrite add_link_nodes. rewrite <- (D1 y). apply D2.
Qed.

Theorem prim_spec_proof : prim_spec.
Proof.
  intros g. split; [intros x; apply add_node_spec|].
  split; [intros o x; rewrite add_origin_put; apply put_node_spec with (p := c_orig) (q := c_dest); reflexivity|].
  split; [intros o x; rewrite add_destination_put; apply put_node_spec with (p := c_dest) (q := c_orig); reflexivity|].
  intros u l d. apply add_link_spec.
Qed.

(* the loop with two objects in hand, read through projections *)
Lemma path_loop_two a l p r last :
  path_loop [a; l] (p :: r) last =
  if is_node p then let s := path_loop [p] r (Some p) in (PAddNode p :: PAddLink a l p :: fst (fst s), snd (fst s), snd s)
  else ([], Some CTypeErr, Some p).
Proof. cbn [path_loop]. destruct (is_node p); [|reflexivity]. destruct (path_loop [p] r (Some p)) as [[ps e] lst]. reflexivity. Qed.

Definition lastnode (last : option obj) : bool := match last with Some x => is_node x | None => false end.
(* the loop ran through and stopped on a node: what expand_path asks before it adds the destination *)
Definition accepted (s : list prim * option cerr * option obj) : bool :=
  match snd (fst s) with None => lastnode (snd s) | Some _ => false end.

Lemma link_not_node p : is_link p = true -> is_node p = false.
Proof. destruct p; simpl; congruence. Qed.

Lemma accepted_alternates rest :
  (forall a last, accepted (path_loop [a] rest last) = match rest with [] => lastnode last | _ => alternates false rest end) /\
  (forall a l last, accepted (path_loop [a; l] rest last) = match rest with [] => lastnode last | _ => alternates true rest end).
Proof.
  induction rest as [|p r [IH1 IH2]]; split; intros; try reflexivity.
  - cbn [path_loop alternates]. destruct (is_link p) eqn:Lp; [|reflexivity]. rewrite IH2.
    destruct r; [cbn; rewrite (link_not_node p Lp)|]; reflexivity.
  - rewrite path_loop_two. cbn [alternates]. destruct (is_node p) eqn:Np; [|reflexivity].
    change (accepted (path_loop [p] r (Some p)) = true && alternates false r). rewrite IH1.
    destruct r; [cbn; rewrite Np|]; reflexivity.
Qed.

Theorem path_spec_proof : path_spec.
Proof.
  intros [|first rest] o d; [split; discriminate|].
  (* the documented grammar, as the loop reads it *)
  replace (well_formed_path (first :: rest)) with (is_node first && accepted (path_loop [first] rest None))
    by (rewrite (proj1 (accepted_alternates rest)); destruct rest; [apply andb_false_r|reflexivity]).
  unfold expand_path, accepted. destruct (is_node first); [|split; discriminate].
  destruct (path_loop [first] rest None) as [[ps [e|]] [x|]]; cbn; try (split; discriminate).
  destruct (is_node x); split; (reflexivity || discriminate).
Qed.

(* well-formedness (cwf) holds along any calls, the typing half (only_nodes_and_links) along typed ones *)
Lemma cwf_put_node f x g : (forall c, c_obj (f c) = c_obj c) -> cwf g -> cwf (put_node f x g).
Proof.
  intros Hf (N & E & En). split; [|split].
  - rewrite put_node_nodes. apply (NoDup_keys_kput c_obj obj_eqb obj_eqb_eq); [intros c <-| |exact N]; apply Hf.
  - rewrite put_node_edges. exact E.
  - intros e He. rewrite put_node_edges in He. rewrite !a_node_put by exact Hf. destruct (En e He). auto.
Qed.
Lemma onl_put_node f x g : (forall c, c_obj (f c) = c_obj c) -> is_node x = true ->
  only_nodes_and_links g -> only_nodes_and_links (put_node f x g).
Proof.
  intros Hf Hx [Hn He]. split; [|rewrite put_node_edges; exact He].
  rewrite put_node_nodes. apply kput_Forall; [rewrite Hf; exact Hx| |exact Hn]. intros c. rewrite Hf. auto.
Qed.

Lemma cwf_add_node g x : cwf g -> cwf (add_node g x).
Proof. rewrite add_node_put. apply cwf_put_node. reflexivity. Qed.
Lemma onl_add_node g x : is_node x = true -> only_nodes_and_links g -> only_nodes_and_links (add_node g x).
Proof. rewrite add_node_put. apply onl_put_node. reflexivity. Qed.

Lemma cwf_add_link g u l d : cwf g -> cwf (add_link g u l d).
Proof.
  intros W. pose proof (proj1 (add_link_spec g u l d)) as A. split; [|split].
  - rewrite add_link_nodes. apply cwf_add_node, cwf_add_node, W.
  - rewrite add_link_edges. apply (NoDup_keys_kput ends ends_eqb ends_eqb_eq); [reflexivity..|apply W].
  - rewrite add_link_edges. apply kput_Forall; [split; apply A; auto|intros _ _; split; apply A; auto|].
    intros e He. destruct (proj2 (proj2 W) e He). split; apply A; auto.
Qed.
Lemma onl_add_link g u l d : is_node u = true -> is_link l = true -> is_node d = true ->
  only_nodes_and_links g -> only_nodes_and_links (add_link g u l d).
Proof.
  intros Hu Hl Hd O. split.
  - rewrite add_link_nodes. apply onl_add_node, onl_add_node; assumption.
  - rewrite add_link_edges. apply kput_Forall; [exact Hl|intros _ _; exact Hl|apply O].
Qed.

Definition typed_prim (p : prim) : Prop :=
  match p with
  | PAddNode x => is_node x = true
  | PAddLink u l d => is_node u = true /\ is_link l = true /\ is_node d = true
  | PAddOrigin _ x | PAddDestination _ x => is_node x = true
  end.

Lemma cwf_prim g p : cwf g -> cwf (apply_prim g p).
Proof. destruct p; simpl; [apply cwf_add_node|apply cwf_add_link|apply cwf_put_node..]; reflexivity. Qed.
Lemma onl_prim g p : typed_prim p -> only_nodes_and_links g -> only_nodes_and_links (apply_prim g p).
Proof.
  destruct p; simpl; [apply onl_add_node|intros (A & B & C); apply onl_add_link; assumption|apply onl_put_node..]; reflexivity.
Qed.

Definition cinv (g : cgraph) : Prop := cwf g /\ only_nodes_and_links g.
Lemma cinv_prim g p : typed_prim p -> cinv g -> cinv (apply_prim g p).
Proof. intros T [W O]. split; [apply cwf_prim|apply onl_prim]; assumption. Qed.
Lemma cinv_empty : cinv cempty.
Proof. split; [split; [constructor|split; [constructor|intros e []]]|split; intros ? []]. Qed.

Lemma path_loop_typed rest :
  (forall a last, is_node a = true -> Forall typed_prim (fst (fst (path_loop [a] rest last)))) /\
  (forall a l last, is_node a = true -> is_link l = true -> Forall typed_prim (fst (fst (path_loop [a; l] rest last)))).
Proof.
  induction rest as [|p r [IH1 IH2]]; split; intros; try (constructor; fail).
  - cbn [path_loop]. destruct (is_link p) eqn:Lp; [apply IH2; assumption|constructor].
  - rewrite path_loop_two. destruct (is_node p) eqn:Np; [|constructor].
    constructor; [exact Np|]. constructor; [repeat split; assumption|apply IH1, Np].
Qed.

Lemma expand_typed p o d : Forall typed_prim (fst (expand_path p o d)).
Proof.
  unfold expand_path. destruct p as [|first rest]; [constructor|]. destruct (is_node first) eqn:Nf; [|constructor].
  pose proof (proj1 (path_loop_typed rest) first None Nf) as H.
  assert (Hpre : Forall typed_prim (PAddNode first :: match o with Some o0 => [PAddOrigin o0 first] | None => [] end))
    by (destruct o; repeat constructor; exact Nf).
  destruct (path_loop [first] rest None) as [[ps [e|]] [x|]]; cbv zeta; cbn [negb fst] in *; try (apply Forall_app; split; assumption).
  destruct (is_node x) eqn:Nx; cbn [negb fst]; rewrite ?Forall_app; repeat split; try assumption.
  destruct d; repeat constructor; exact Nx.
Qed.

Lemma apply_op_inv g op : typed_op op -> cinv g -> cinv (fst (apply_op g op)).
Proof.
  destruct op; simpl; intros T.
  - apply (cinv_prim g (PAddNode x) T).
  - apply (fold_left_Forall cinv _ _ xs (fun a x => cinv_prim a (PAddNode x)) T).
  - apply (cinv_prim g (PAddLink u l d) T).
  - apply (fold_left_Forall cinv _ _ ls (fun a t => cinv_prim a (PAddLink (fst (fst t)) (snd (fst t)) (snd t))) T).
  - apply (cinv_prim g (PAddOrigin o x) T).
  - apply (cinv_prim g (PAddDestination d x) T).
  - unfold add_path. pose proof (expand_typed path o d) as H. destruct (expand_path path o d) as [ps e].
    apply (fold_left_Forall cinv typed_prim apply_prim ps cinv_prim H).
Qed.

Theorem construction_invariant_proof : construction_invariant.
Proof. intros ops Ht. exact (fold_left_Forall cinv typed_op _ ops apply_op_inv Ht cempty cinv_empty). Qed.

Lemma node_id_inj x y : is_node x = true -> is_node y = true -> node_id x = node_id y -> x = y.
Proof. destruct x; try discriminate. destruct y; try discriminate. simpl. intros _ _ ->. reflexivity. Qed.

Lemma to_graph_wf g : cinv g -> wf_graph (to_graph g).
Proof.
  intros [(N & _ & En) [On _]]. unfold wf_graph, to_graph. simpl. rewrite map_map. simpl.
  rewrite <- (map_map c_obj node_id). split.
  - apply NoDup_map_inj_on; [|exact N].
    assert (H : forall x, In x (map c_obj (c_nodes g)) -> is_node x = true)
      by (intros x Hx; apply in_map_iff in Hx; destruct Hx as (c & <- & Hc); apply On, Hc).
    intros a b Ha Hb. apply node_id_inj; auto.
  - intros e He. apply in_map_iff in He. destruct He as (ce & <- & Hce). destruct (En ce Hce). split; simpl; apply in_map; assumption.
Qed.

Theorem reachable_wf_graph ops : Forall typed_op ops -> wf_graph (to_graph (run_ops ops)).
Proof. intros Ht. apply to_graph_wf, construction_invariant_proof, Ht. Qed.
