(* ValidGenTie.v — Validity.is_valid_msgs = the regenerated Network.is_valid (gen/ValidGen.v). *)
From Coq Require Import List Arith.
From SM Require Import Graph Types Validity ValidSupport.
From SM.gen Require Import ValidGen.
From SM.specs Require Import ValidGen_spec.
From SM.proofs Require Import GraphFacts ValidSpecProof.
Import ListNotations.

Lemma flat_map_map {X Y Z} (h : X -> Y) (F : Y -> list Z) l :
  flat_map F (map h l) = flat_map (fun x => F (h x)) l.
Proof. apply ListFacts.flat_map_map. Qed.

Lemma elem_eqb_sym x y : elem_eqb x y = elem_eqb y x.
Proof. destruct x, y; try reflexivity; apply Nat.eqb_sym. Qed.

Lemma cnt_get_set c k v x d : cnt_get (cnt_set c k v) x d = if elem_eqb k x then v else cnt_get c x d.
Proof.
  induction c as [|[k' v'] c IH]; cbn; [reflexivity|].
  destruct (elem_eqb k' k) eqn:E; cbn; [apply elem_eqb_eq in E; subst k'; destruct (elem_eqb k x); reflexivity|].
  rewrite IH. destruct (elem_eqb k' x) eqn:E'; [|reflexivity].
  apply elem_eqb_eq in E'. subst k'. rewrite elem_eqb_sym, E. reflexivity.
Qed.

(* the counting dictionary of pass (1) against the list of objects seen so far: an object counts at least once
   iff it was seen, so "count > 1 after the increment" is "seen before" *)
Definition counts_seen (c : list (elem * nat)) (seen : list elem) : Prop :=
  forall x, (1 <=? cnt_get c x 0) = existsb (elem_eqb x) seen.

Lemma pass1_is_dup_msgs g l : forall c seen m,
  counts_seen c seen ->
  snd (fold_left (gen_pass1_body g) l (c, m)) = m ++ dup_msgs seen l.
Proof.
  induction l as [|x l IH]; intros c seen m Inv; cbn [fold_left dup_msgs].
  - rewrite app_nil_r; reflexivity.
  - unfold gen_pass1_body at 2.
    assert (Hlt : (1 <? cnt_get c x 0 + 1) = existsb (elem_eqb x) seen).
    { rewrite <- Inv, Nat.add_1_r. reflexivity. }
    rewrite Hlt, (IH _ (x :: seen)).
    + destruct (existsb (elem_eqb x) seen); cbn [app]; rewrite <- ?app_assoc; reflexivity.
    + intros y. cbn [existsb]. destruct (elem_eqb y x) eqn:E.
      * apply elem_eqb_eq in E; subst y. rewrite cnt_get_set, (proj2 (elem_eqb_eq x x) eq_refl).
        (* the stored count is one more than the old one, however the text writes that sum *)
        destruct (cnt_get c x 0); reflexivity.
      * rewrite cnt_get_set, elem_eqb_sym, E. cbn [orb]. apply Inv.
Qed.

Lemma pass1_iter_is_counted g : gen_pass1_iter g = counted g.
Proof. unfold gen_pass1_iter, counted, gen_yield_origin_destination_yielder. rewrite map_map. reflexivity. Qed.

(* passes (2)-(4) append one report list per visited object *)
Lemma fold_report {X} (body : list msg -> X -> list msg) (F : X -> list msg) :
  (forall m x, body m x = m ++ F x) ->
  forall l init, fold_left body l init = init ++ flat_map F l.
Proof.
  intros H l; induction l as [|x l IH]; intros init; cbn [fold_left flat_map].
  - rewrite app_nil_r; reflexivity.
  - rewrite IH, H, app_assoc; reflexivity.
Qed.

(* `if c: msgs.append(x)` appends a list of one or none *)
Lemma report_if (b : bool) (m : list msg) x : (if b then m ++ [x] else m) = m ++ (if b then [x] else []).
Proof. destruct b; [reflexivity|symmetry; apply app_nil_r]. Qed.

(* The tests of the three bodies are compared by cases on what they look at (the attachments, the kind, the edge views),
   not by syntax: a rewrite of a test that decides the same cases (`n_in + n_out == 0` for `n_in == 0 and n_out == 0`,
   the two counts taken in the other order) regenerates a text these proofs still accept. *)
Lemma pass2_body g m ne : gen_pass2_body g m (nid ne, ne) = m ++ node_msgs g ne.
Proof.
  unfold gen_pass2_body, node_msgs. rewrite !report_if, <- !app_assoc.
  destruct (n_orig ne), (n_dest ne), (length (in_links g (nid ne))), (length (out_links g (nid ne))); reflexivity.
Qed.

Lemma pass3_body U g m x : gen_pass3_body U g m x = m ++ origin_msgs U g x.
Proof.
  destruct x as [o n]. unfold gen_pass3_body, origin_msgs, is_ramp. rewrite !report_if, <- !app_assoc.
  destruct (okind_of U o), (in_links g n), (out_links g n) as [|e1 [|e2 l2]]; reflexivity.
Qed.

Lemma pass4_body g m x : gen_pass4_body g m x = m ++ dest_msgs g x.
Proof.
  destruct x as [d n]. unfold gen_pass4_body, dest_msgs. rewrite !report_if, <- !app_assoc.
  destruct (in_links g n) as [|e1 [|e2 l2]], (out_links g n); reflexivity.
Qed.

Theorem validity_model_is_the_regenerated_code_proof : validity_model_is_the_regenerated_code.
Proof.
  intros U g. unfold gen_is_valid_msgs, is_valid_msgs.
  pose proof (pass1_is_dup_msgs g (gen_pass1_iter g) [] [] [] (fun _ => eq_refl)) as H1.
  destruct (fold_left (gen_pass1_body g) (gen_pass1_iter g) ([], [])) as [c1 m1]. cbn [snd app] in H1. subst m1.
  unfold gen_pass2_iter, gen_pass3_iter, gen_pass4_iter.
  rewrite pass1_iter_is_counted, fold_left_map, (fold_report _ _ (pass2_body g)), (fold_report _ _ (pass3_body U g)),
    (fold_report _ _ (pass4_body g)), <- !app_assoc. reflexivity.
Qed.

Theorem validb_is_the_regenerated_verdict_proof : validb_is_the_regenerated_verdict.
Proof. intros U g. unfold validb. rewrite validity_model_is_the_regenerated_code_proof. reflexivity. Qed.

Theorem regenerated_code_has_four_passes_proof : regenerated_code_has_four_passes.
Proof. reflexivity. Qed.
