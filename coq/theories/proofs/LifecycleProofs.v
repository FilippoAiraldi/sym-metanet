(* LifecycleProofs.v — C19: to_function answers with a function only in a state that passes the scans of
   Lifecycle.ready and closed, read back as compiled_state_ok; what init_vars and step write; and the invariant
   gens_fresh (every symbol generation in use is below the counter) along any history. *)
From Coq Require Import List Arith Bool.
From SM Require Import Lifecycle.
From SM.specs Require Import C19_spec.
From SM.proofs Require Import ListFacts.
Import ListNotations.

Section P.
Variable n : lnet.

Lemma gens_of_In s els g : In g (gens_of s els) <-> exists e, In e els /\ vars (slots s e) = Some (Some g).
Proof.
  unfold gens_of. rewrite in_flat_map. split.
  - intros (e & He & Hg). exists e. split; [exact He|]. destruct (vars (slots s e)) as [[g'|]|]; simpl in Hg;
      try contradiction. destruct Hg as [<-|[]]. reflexivity.
  - intros (e & He & Hv). exists e. split; [exact He|]. rewrite Hv. left. reflexivity.
Qed.

Theorem compile_only_when_ready_proof : compile_only_when_ready n.
Proof.
  intros s. unfold lstep. destruct (ready n s) eqn:R; [|right; reflexivity].
  destruct (closed n s) eqn:C; [|right; reflexivity]. left. eexists. split; [reflexivity|].
  unfold ready in R. rewrite forallb_forall in R. unfold closed in C. rewrite forallb_forall in C.
  split; [|split; [|split; [|reflexivity]]].
  - intros e He Hd. specialize (R e He). rewrite Hd in R. apply andb_true_iff in R. apply R.
  - intros e He Hd. specialize (R e He). rewrite Hd in R. apply andb_true_iff, proj2 in R.
    destruct (next (slots s e)) as [gs|]; [exists gs; reflexivity|discriminate].
  - intros e gs g He Hd Hn Hg.
    assert (Hin : In g (outputs_read n s))
      by (apply in_flat_map; exists e; rewrite Hn; split; [apply filter_In; auto|exact Hg]).
    apply C, (existsb_eqb _ Nat.eqb_eq), gens_of_In in Hin. destruct Hin as (e' & He' & Hv). apply filter_In in He'. exists e'. tauto.
Qed.

Lemma upd_same {T} (f : nat -> T) k v : upd f k v k = v.
Proof. unfold upd. rewrite Nat.eqb_refl. reflexivity. Qed.
Lemma upd_other {T} (f : nat -> T) k v x : x <> k -> upd f k v x = f x.
Proof. intros H. unfold upd. destruct (Nat.eqb_spec x k); [contradiction|reflexivity]. Qed.

Theorem init_resets_next_proof : init_resets_next n.
Proof.
  intros s e k. simpl. destruct k; simpl; rewrite upd_same; split; try reflexivity;
    intros e' H; apply upd_other; exact H.
Qed.

Theorem step_records_current_proof : step_records_current n.
Proof. intros s e _ _. unfold step_one. simpl. rewrite upd_same. split; reflexivity. Qed.

Lemma fresh_upd s e x c ms :
  gens_fresh s -> gen s <= c ->
  (forall g, vars x = Some (Some g) -> g < c) -> (forall gs g, next x = Some gs -> In g gs -> g < c) ->
  gens_fresh {| slots := upd (slots s) e x; gen := c; members := ms |}.
Proof.
  intros [H1 H2] Hc Hv Hn. split; cbn [slots gen]; intros e'; unfold upd; destruct (Nat.eqb e' e).
  - exact Hv.
  - intros g E. exact (Nat.lt_le_trans _ _ _ (H1 e' g E) Hc).
  - exact Hn.
  - intros gs g E Hg. exact (Nat.lt_le_trans _ _ _ (H2 e' gs g E Hg) Hc).
Qed.
Lemma fresh_init s e k : gens_fresh s -> gens_fresh (init_one s e k).
Proof.
  intros H. destruct k; apply fresh_upd; cbn [vars next]; auto; try discriminate.
  intros g [= <-]. apply Nat.lt_succ_diag_r.
Qed.
Lemma fresh_step s e : gens_fresh s -> gens_fresh (step_one n s e).
Proof.
  intros H. apply fresh_upd; cbn [vars next]; [exact H|apply le_n|apply H|].
  intros gs g [= <-] Hg. apply (gens_of_In s (e :: reads n s e)) in Hg. destruct Hg as (x & _ & Hv). exact (proj1 H x g Hv).
Qed.
Lemma fresh_lstep s op : gens_fresh s -> gens_fresh (fst (lstep n s op)).
Proof.
  intros H. destruct op; simpl.
  - apply fresh_init. exact H.
  - apply (fold_left_inv gens_fresh); [intros a e _ Ha; destruct (declares_states n e); [apply fresh_step|]; exact Ha|].
    apply (fold_left_inv gens_fresh); [intros a e _; apply fresh_init|exact H].
  - destruct (negb (declares_states n e)); [exact H|]. destruct (negb (initialised s e)); [exact H|].
    destruct (forallb _ _); [apply fresh_step|]; exact H.
  - exact H.
  - exact H.
  - destruct (ready n s); [destruct (closed n s)|]; exact H.
Qed.

Lemma lrun_fst s ops : fst (lrun n s ops) = fold_left (fun s op => fst (lstep n s op)) ops s.
Proof.
  revert s. induction ops as [|op ops IH]; intros s; [reflexivity|]. simpl. rewrite <- IH.
  destruct (lstep n s op) as [s1 r]. simpl. destruct (lrun n s1 ops). reflexivity.
Qed.

Theorem generations_never_reused_proof : generations_never_reused n.
Proof.
  intros ops. rewrite lrun_fst. apply (fold_left_inv gens_fresh); [intros s op _; apply fresh_lstep|].
  split; simpl; intros; discriminate.
Qed.
End P.
