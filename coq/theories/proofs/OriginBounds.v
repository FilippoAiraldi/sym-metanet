(* OriginBounds.v — C17: every origin law of the regenerated engines returns a flow q with 0 <= q <= demand + queue / T
   and q <= capacity, hence the queue law keeps the queue non-negative.  The ramp laws are flows below one common
   term (limited_flow_ok); the speed-limited branch of the mainstream law stays below the capacity flow because
   x (-a ln x)^(1/a) <= exp(-1/a) on (0,1] (neglog_pow_bound). *)
From Coq Require Import Reals Qreals Lra String.
From SM Require Import Num NumR.
From SM.gen Require Import EnginesNp EnginesCs.
From SM.specs Require Import C17_spec.
From SM.proofs Require Import VecR PrimR EnginesEq.
Local Open Scope R_scope.

Lemma scale_le c x : 0 <= c -> x <= 1 -> c * x <= c.
Proof. intros Hc Hx. pose proof (Rmult_le_compat_l c x 1 Hc Hx) as H. rewrite Rmult_1_r in H. exact H. Qed.

Lemma space_nonneg rmax r1 rc : r1 <= rmax -> rc < rmax -> 0 <= (rmax - r1) / (rmax - rc).
Proof. intros. apply Rle_mult_inv_pos; lra. Qed.

Lemma demand_nonneg d w T : 0 <= d -> 0 <= w -> 0 < T -> 0 <= d + w / T.
Proof. intros Hd Hw HT. apply Rplus_le_le_0_compat; [exact Hd|apply Rle_mult_inv_pos; assumption]. Qed.

Lemma queue_nonneg q d w T : 0 < T -> q <= d + w / T -> 0 <= w + T * (d - q).
Proof. intros HT Hq. pose proof (Rinv_r_simpl_m T w ltac:(lra)) as Hw. (* Hq times T *) nra. Qed.

Lemma flow_ok_below q x d w T C :
  0 < T -> 0 <= q <= x -> x <= d + w / T -> x <= C -> flow_ok q d w T C.
Proof. intros HT [H0 Hq] Hd HC. repeat split; try lra. apply queue_nonneg; [exact HT|lra]. Qed.

(* the ramp laws share one term x: demand, capped by the capacity scaled by min(s, space).  Every flow between 0 and
   x meets the four bounds and vanishes with the space; each law is such a flow *)
Lemma limited_flow_ok q d w T C s rmax r1 rc :
  let x := Rmin (d + w / T) (C * Rmin s ((rmax - r1) / (rmax - rc))) in
  0 <= d -> 0 <= w -> 0 < T -> 0 <= C -> 0 <= s <= 1 -> r1 <= rmax -> rc < rmax ->
  (0 <= x -> 0 <= q <= x) -> flow_ok q d w T C /\ (r1 = rmax -> q = 0).
Proof.
  intros x Hd Hw HT HC [Hs0 Hs1] H1 Hrc Hq.
  pose proof (demand_nonneg _ _ _ Hd Hw HT) as Hdem. pose proof (space_nonneg _ _ _ H1 Hrc) as Hsp.
  assert (Hm : 0 <= Rmin s ((rmax - r1) / (rmax - rc)) <= 1).
  { split; [apply Rmin_glb; assumption|eapply Rle_trans; [apply Rmin_l|exact Hs1]]. }
  assert (Hc : 0 <= C * Rmin s ((rmax - r1) / (rmax - rc)) <= C).
  { split; [apply Rmult_le_pos|apply scale_le]; (exact HC || apply Hm). }
  destruct Hq as [Hq0 Hqx]; [apply Rmin_glb; [exact Hdem|apply Hc]|]. split.
  - eapply flow_ok_below; [exact HT|split; eassumption|apply Rmin_l|eapply Rle_trans; [apply Rmin_r|apply Hc]].
  - intros ->. apply Rle_antisym; [|exact Hq0]. eapply Rle_trans; [exact Hqx|]. eapply Rle_trans; [apply Rmin_r|].
    unfold Rminus at 1. rewrite Rplus_opp_r. unfold Rdiv. rewrite Rmult_0_l, (Rmin_right s 0), Rmult_0_r by exact Hs0.
    apply Rle_refl.
Qed.

Theorem np_ramp_bounds : ramp_bounds (@Np.origins_get_ramp_flow R NumR).
Proof.
  intros d w C r rmax r1 rc T ty Hd Hw HT HC Hr H1 Hrc. rewrite np_ramp_eq. destruct (String.eqb ty "in").
  - apply (limited_flow_ok _ d w T C r rmax r1 rc); try assumption. intros Hx. split; [exact Hx|apply Rle_refl].
  - apply (limited_flow_ok _ d w T C 1 rmax r1 rc); try assumption; [lra|]. intros Hx.
    split; [apply Rmult_le_pos; [apply Hr|exact Hx]|]. rewrite Rmult_comm. apply scale_le; [exact Hx|apply Hr].
Qed.

Theorem np_simp_bounds : simp_bounds (@Np.origins_get_simplifiedramp_flow R NumR).
Proof.
  intros qdes d w C rmax r1 rc T ty Hty Hq Hd Hw HT HC H1 Hrc. rewrite np_simp_eq.
  destruct (String.eqb_spec ty "unlimited") as [E|_]; [contradiction|].
  apply (limited_flow_ok _ d w T C 1 rmax r1 rc); try assumption; [lra|].
  intros Hx. split; [apply Rmin_glb; assumption|apply Rmin_r].
Qed.

(* the mainstream origin rests on x (-a ln x)^(1/a) <= exp(-1/a) for x in (0,1] *)
Lemma ln_le_minus_1 b : 0 < b -> ln b <= b - 1.
Proof.
  intros Hb. pose proof (exp_ineq1_le (ln b)) as H. rewrite exp_ln in H by exact Hb. lra.
Qed.

Lemma Rpow_nonneg x y : 0 <= Rpow x y.
Proof.
  unfold Rpow. destruct (Req_EM_T x 0); [lra|]. unfold Rpower. left. apply exp_pos.
Qed.

Lemma exp_le_compat x y : x <= y -> exp x <= exp y.
Proof. intros [H|H]; [left; apply exp_increasing; exact H|right; rewrite H; reflexivity]. Qed.

(* with b = -a ln x the left side is exp ((ln b - b) / a), and ln b <= b - 1 *)
Lemma neglog_pow_bound a x : 0 < a -> 0 < x <= 1 -> x * Rpow (- a * ln x) (1 / a) <= exp (- (1 / a)).
Proof.
  intros Ha Hx. pose proof (neg_log_nonneg a x Ha Hx) as Hb. destruct Hx as [Hx0 _].
  unfold Rpow. destruct (Req_EM_T (- a * ln x) 0) as [_|NE]; [rewrite Rmult_0_r; left; apply exp_pos|].
  pose proof (ln_le_minus_1 (- a * ln x) ltac:(lra)) as Hl. pose proof (exp_ln x Hx0) as Ex.
  unfold Rpower. set (L := ln x) in *. rewrite <- Ex, <- exp_plus. apply exp_le_compat.
  (* Hl divided by a *)
  pose proof (Rinv_0_lt_compat a Ha). pose proof (Rinv_r a ltac:(lra)). nra.
Qed.

(* a speed limit below the free speed: the speed-limited flow term stays below the critical one *)
Lemma main_speed_le a vf vlim : 0 < a -> 0 < vf -> 0 <= vlim <= vf ->
  vlim * Rpow (- a * ln (Rmax (/ 20) (Rmin 1 (vlim / vf)))) (1 / a) <= vf * exp (- (1 / a)).
Proof.
  intros Ha Hvf [H0 H1]. pose proof (ratio_guard (vlim / vf)) as Hr.
  assert (Hq : vlim = vf * (vlim / vf)) by (field; lra). set (r := vlim / vf) in *.
  assert (Hv : vlim <= vf * Rmax (/ 20) (Rmin 1 r)).
  { rewrite Hq. apply Rmult_le_compat_l; [lra|]. eapply Rle_trans; [|apply Rmax_r].
    apply Rmin_glb; [|apply Rle_refl]. apply (Rmult_le_reg_l vf); [exact Hvf|]. rewrite <- Hq. lra. }
  set (ratio := Rmax _ _) in *.
  pose proof (neglog_pow_bound a ratio Ha Hr) as Hphi. pose proof (Rpow_nonneg (- a * ln ratio) (1 / a)) as Hp.
  eapply Rle_trans; [apply Rmult_le_compat_r; [exact Hp|exact Hv]|].
  rewrite Rmult_assoc. apply Rmult_le_compat_l; [lra|exact Hphi].
Qed.

Theorem np_main_bounds : main_bounds (@Np.origins_get_mainstream_flow R NumR).
Proof.
  intros d w vctrl v1 rc a vf lanes T Hd Hw HT Hvc Hv1 Hrc Ha Hvf Hl.
  rewrite np_main_eq, np_Vcrit by lra.
  pose proof (demand_nonneg _ _ _ Hd Hw HT) as Hdem.
  set (vlim := Rmin vctrl v1). assert (Hvl : 0 <= vlim) by (apply Rmin_glb; assumption).
  assert (HVc : 0 < vf * exp (- (1 / a)) <= vf).
  { pose proof (Rdiv_lt_0_compat 1 a Rlt_0_1 Ha). pose proof (exp_le_compat (- (1 / a)) 0 ltac:(lra)) as HE.
    rewrite exp_0 in HE. split; [apply Rmult_lt_0_compat; [exact Hvf|apply exp_pos]|apply scale_le; lra]. }
  set (Vc := vf * exp (- (1 / a))) in *.
  set (qlim := if Rlt_dec _ _ then _ else _).
  assert (Hlim : 0 <= qlim <= lanes * Vc * rc).
  { unfold qlim. destruct (Rlt_dec vlim Vc) as [Hlt|_].
    - set (pw := Rpow _ _). replace (lanes * vlim * rc * pw) with (lanes * (vlim * pw) * rc) by ring. split.
      + apply Rmult_le_pos; [apply Rmult_le_pos; [exact Hl|apply Rmult_le_pos; [exact Hvl|apply Rpow_nonneg]]|lra].
      + apply Rmult_le_compat_r; [lra|]. apply Rmult_le_compat_l; [exact Hl|]. apply main_speed_le; lra.
    - split; [apply Rmult_le_pos; [apply Rmult_le_pos|]; lra|apply Rle_refl]. }
  apply (flow_ok_below _ (Rmin (d + w / T) qlim)); [exact HT| |apply Rmin_l|eapply Rle_trans; [apply Rmin_r|apply Hlim]].
  split; [apply Rmin_glb; [exact Hdem|apply Hlim]|apply Rle_refl].
Qed.

Theorem np_queue_law : queue_law (@Np.origins_step_queue R NumR).
Proof. intros w d q T. reflexivity. Qed.

From SM Require Import Engine Types Blocks.
Local Open Scope R_scope.

Lemma Ok_Some_inj {T} (x y : T) : Ok (Some x) = Ok (Some y) -> x = y.
Proof. intros [= H]. exact H. Qed.

(* the next queue is the queue law applied to a flow that one of the three bounds covers *)
Theorem np_queues_nonneg : queues_stay_nonneg (@np_engine R NumR).
Proof.
  intros U P g st o m w' Hm (Hd & Hw & HT & HC & Hr1 & Hrc & Hv1 & Hrc0 & Ha & Hvf & Hl & Hk).
  assert (Hlan : 0 <= lanes U m).
  { unfold lanes. numR. rewrite <- Q2R_0. apply Qle_Rle. exact Hl. }
  unfold origin_step, origin_flow, vfirst. rewrite Hm, zeroR. cbn [bind pn_w no_options e_step_w np_engine].
  rewrite (np_queue_law (s_w st o) (s_do st o) _ (gT P)).
  destruct (okind_of U o) as [| |is_in|[|]]; try contradiction; cbn [is_queued e_main e_ramp e_simp np_engine];
    intros <-%Ok_Some_inj.
  - apply np_main_bounds; assumption.
  - apply np_ramp_bounds; assumption.
  - apply np_simp_bounds; (assumption || discriminate).
Qed.

