(* Lifted.v — finiteness of a whole step.  The element-layer model (Blocks.v) run on the partial reals
   (NumPR: None = a nan / inf born from finite input) from finite inputs equals, entry by entry, the
   injection of the same model run on the reals, for EVERY graph (valid or not: then both report the same
   Python failure), provided the inputs are admissible: non-negative densities (exact zeros allowed),
   positive lengths, lanes, rho_crit, a, tau, kappa, T; for mainstream origins non-negative speed limit
   and first speed (zero allowed: the log-ratio guard) and positive v_free; rho_crit < rho_max for ramps;
   and excluding only the model's own 0/0: a merge whose total last-segment inflow is zero, a bifurcation
   whose total first-segment density is zero (and turn rates summing to zero).  No result of the step is
   undefined.  Proof: every primitive of the engine record commutes with the injection on its domain
   (LiftPrims.v); the element-layer glue is walked once, one lemma per named part (BlocksFacts.v). *)
From Coq Require Import Reals Lia Lra.
From SM Require Import Num NumR NumPR Graph Engine Expr Types Blocks.
From SM.specs Require Import C15fin_spec C07fin_spec.
From SM.proofs Require Import LiftPrims GraphFacts BlocksFacts.
From Coq Require Import List.
Import ListNotations.
Local Open Scope R_scope.

Lemma if_distr {T V} (f : T -> V) (b : bool) x y : (if b then f x else f y) = f (if b then x else y).
Proof. destruct b; reflexivity. Qed.
Lemma bind_mapres {T V W X} (h : V -> T) (k : X -> W) (r : res V) (f1 : T -> res W) (f2 : V -> res X) :
  (forall x, f1 (h x) = mapres k (f2 x)) -> bind (mapres h r) f1 = mapres k (bind r f2).
Proof. intros H. destruct r; [apply H|reflexivity]. Qed.

Section Lifted.
Variable U : universe.
Variable P : params R.
Variable g : graph.
Variable st : state R.          (* the state the elements are stepped from (after init_vars) *)

Notation EP := (@np_engine PR NumPR).
Notation ER := (@np_engine R NumR).
Notation PP := (liftP P).
Notation SP := (liftS st).

(* the statements' admissible_inputs (specs/C07fin_spec.v: link_ok, origin_ok, last_flow written on the inputs)
   gives this record, whose merge and bifurcation fields speak of the model's own terms: Finite.admissible_model *)
Definition link_adm (m : nat) : Prop :=
  Forall (fun x => 0 <= x) (s_rho st m) /\ 0 < lp P m PL /\ 0 < Q2R (llanes (linkd U m)) /\
  0 < lp P m Prhocrit /\ 0 < lp P m Pa /\
  (1 <= List.length (s_v st m))%nat /\ List.length (s_rho st m) = List.length (s_v st m).
Definition origin_adm (o m : nat) : Prop :=
  match okind_of U o with
  | OIdeal => True
  | OMain => 0 <= s_uo st o /\ 0 <= vfirst (s_v st m) /\ 0 < lp P m Pvfree /\
             0 < lp P m Prhocrit /\ 0 < lp P m Pa
  | ORamp _ | OSimp _ => lp P m Prhocrit < lp P m Prhomax
  end.
Definition merge_inflow (n : nat) : R :=
  vsum (map (fun e => vlast (link_flow ER U st (e_link e))) (in_links g n)).
Definition bifurcation_density (n : nat) : R :=
  vsum (map (fun e => vfirst (s_rho st (e_link e))) (out_links g n)).
Definition turn_sum (n : nat) : R :=
  vsum (map (fun e => lp P (e_link e) Pturn) (out_links g n)).

Record admissible : Prop := {
  adm_T : 0 < gT P; adm_tau : 0 < gtau P; adm_kappa : 0 < gkappa P;
  adm_link : forall e, In e (g_edges g) -> link_adm (e_link e);
  adm_origin : forall o m, exiting_link g o = Ok m -> origin_adm o m;
  adm_turn : forall n, out_links g n <> [] -> turn_sum n <> 0;
  (* the model's own 0/0 are excluded *)
  adm_merge : forall n, (2 <= List.length (in_links g n))%nat -> merge_inflow n <> 0;
  adm_bifurcation : forall n, dest_at g n = None -> (2 <= List.length (out_links g n))%nat ->
                              bifurcation_density n <> 0 }.
Hypothesis ADM : admissible.

Lemma link_flow_lift m : link_flow EP U SP m = somes (link_flow ER U st m).
Proof. apply np_flow_finite. Qed.

Lemma vcat_singletons_lift {T} (fP : T -> PR) (f : T -> R) (l : list T) :
  (forall x, fP x = Some (f x)) ->
  e_vcat EP (map (fun x => [fP x]) l) = somes (e_vcat ER (map (fun x => [f x]) l)).
Proof. intros H. rewrite !np_vcat_singletons. unfold somes. rewrite map_map. apply map_ext, H. Qed.
Lemma last_v_lift m : vlast (s_v SP m) = Some (vlast (s_v st m)).
Proof. apply vlast_somes. Qed.
Lemma last_flow_lift m : vlast (link_flow EP U SP m) = Some (vlast (link_flow ER U st m)).
Proof. rewrite link_flow_lift. apply vlast_somes. Qed.

Lemma origin_speed_lift o : origin_speed g SP o = mapres Some (origin_speed g st o).
Proof. unfold origin_speed. destruct (exiting_link g o) as [m|e]; [|reflexivity]. cbn. apply f_equal, vfirst_somes. Qed.

Lemma origin_flow_lift o : origin_flow EP U PP g SP o = mapres Some (origin_flow ER U P g st o).
Proof.
  unfold origin_flow. destruct (exiting_link g o) as [m|e] eqn:Hex; [|reflexivity]. cbn [bind mapres]. apply f_equal.
  pose proof (adm_origin ADM o m Hex) as Ho. unfold origin_adm in Ho. pose proof (adm_T ADM) as HT.
  destruct (okind_of U o) as [| |is_in|lim]; cbn [s_do s_w s_uo s_v s_rho liftS lp gT ocap liftP].
  - rewrite link_flow_lift. apply vfirst_somes.
  - destruct Ho as (_ & _ & H3 & H4 & H5). rewrite vfirst_somes. apply np_main_lift; assumption.
  - rewrite vfirst_somes. apply np_ramp_lift; assumption.
  - rewrite vfirst_somes. apply np_simp_lift; assumption.
Qed.

Lemma dest_density_lift d : dest_density EP U PP g SP d = mapres Some (dest_density ER U P g st d).
Proof.
  unfold dest_density. destruct (entering_link g d) as [m|e]; [|reflexivity]. cbn [bind mapres s_rho liftS]. apply f_equal.
  rewrite vlast_somes. destruct (dkind_of U d); reflexivity.
Qed.

Lemma node_down_density_lift n :
  node_down_density EP U PP g SP n = mapres Some (node_down_density ER U P g st n).
Proof.
  unfold node_down_density. destruct (dest_at g n) as [d|] eqn:Hd; [apply dest_density_lift|].
  pose proof (adm_bifurcation ADM n Hd) as H. unfold bifurcation_density in H.
  destruct (out_links g n) as [|e1 [|e2 l]]; [reflexivity|apply (f_equal Ok), vfirst_somes|].
  cbn [mapres]. apply f_equal. rewrite (vcat_singletons_lift _ _ _ (fun e => vfirst_somes (s_rho st (e_link e)))). apply np_down_dens_lift.
  rewrite np_vcat_singletons. apply H. cbn [List.length]. lia.
Qed.

Definition lift2 (p : R * R) : PR * PR := (Some (fst p), Some (snd p)).

Lemma node_origin_lift n :
  node_origin EP U PP g SP n = mapres (option_map lift2) (node_origin ER U P g st n).
Proof.
  unfold node_origin. destruct (origin_at g n) as [o|]; [|reflexivity].
  rewrite origin_speed_lift, origin_flow_lift. apply bind_mapres. intros vo. apply bind_mapres. reflexivity.
Qed.

(* the share of the leaving link m in the inflow qs (+ qo) of node n *)
Lemma up_flow_lift qs m n qo : out_links g n <> [] ->
  e_up_flow EP (somes qs) (lp PP m Pturn) (turn_rates EP PP g n) (option_map Some qo) =
  Some (e_up_flow ER qs (lp P m Pturn) (turn_rates ER P g n) qo).
Proof.
  intros H. unfold turn_rates. rewrite (vcat_singletons_lift (fun e' => lp PP (e_link e') Pturn) _ _ (fun _ => eq_refl)).
  apply np_up_flow_lift. rewrite np_vcat_singletons. apply (adm_turn ADM), H.
Qed.
(* its shape at a node with one entering link *)
Lemma up_flow1_lift q m n : out_links g n <> [] ->
  e_up_flow EP (e_vcat EP [[Some q]]) (lp PP m Pturn) (turn_rates EP PP g n) None =
  Some (e_up_flow ER (e_vcat ER [[q]]) (lp P m Pturn) (turn_rates ER P g n) None).
Proof. exact (up_flow_lift [q] m n None). Qed.

Lemma node_up_of_lift n m ov : out_links g n <> [] ->
  node_up_of EP U PP g SP n m (option_map lift2 ov) = mapres lift2 (node_up_of ER U P g st n m ov).
Proof.
  intros Hne. unfold node_up_of. pose proof (adm_merge ADM n) as Hm. unfold merge_inflow in Hm.
  destruct (in_links g n) as [|e1 [|e2 l]].
  - destruct ov as [[vo qo]|]; reflexivity.
  - cbv zeta. rewrite last_v_lift, last_flow_lift.
    destruct ov as [[vo qo]|]; cbn [option_map lift2 snd add NumPR pr2];
      rewrite (up_flow1_lift _ m n Hne), (if_distr Some); reflexivity.
  - cbn [e_up_speed np_engine].
    rewrite (vcat_singletons_lift _ _ _ (fun e => last_flow_lift (e_link e))),
      (vcat_singletons_lift _ _ _ (fun e => last_v_lift (e_link e))).
    replace (option_map snd (option_map lift2 ov)) with (option_map Some (option_map snd ov))
      by (destruct ov as [[vo qo]|]; reflexivity).
    rewrite (up_flow_lift _ m n _ Hne), np_up_speed_lift; [reflexivity|].
    rewrite np_vcat_singletons. apply Hm. cbn [List.length]. lia.
Qed.

Lemma node_up_lift n m : out_links g n <> [] ->
  node_up_speed_flow EP U PP g SP n m = mapres lift2 (node_up_speed_flow ER U P g st n m).
Proof.
  intros Hne. rewrite !node_up_speed_flow_eq, node_origin_lift. apply bind_mapres. intros ov.
  apply node_up_of_lift, Hne.
Qed.

Lemma link_Veq_lift m : link_adm m -> link_Veq EP U PP SP m = somes (link_Veq ER U P st m).
Proof.
  intros (Hr & _ & _ & Hrc & Ha & _). unfold link_Veq. destruct (lvsl (linkd U m)) as [vsl|].
  - apply np_cVeq_lift; assumption.
  - apply np_Veq_finite; assumption.
Qed.

Lemma merging_ramp_flow_lift u :
  merging_ramp_flow EP U PP g SP u = mapres (option_map Some) (merging_ramp_flow ER U P g st u).
Proof.
  unfold merging_ramp_flow. cbn [gdelta liftP]. destruct (gdelta P) as [de|]; [|reflexivity]. cbn [option_map].
  destruct (origin_at g u) as [o|]; [|reflexivity]. destruct (in_links g u); [reflexivity|].
  destruct (is_ramp (okind_of U o)); [|reflexivity]. rewrite origin_flow_lift. apply bind_mapres. reflexivity.
Qed.

Lemma lane_drop_lift m d : lane_drop U PP g m d = option_map Some (lane_drop U P g m d).
Proof.
  unfold lane_drop. cbn [gphi liftP]. destruct (gphi P); [|reflexivity]. cbn [option_map].
  destruct (out_links g d) as [|e [|e' l']]; try reflexivity. destruct (Qeq_bool _ 0); reflexivity.
Qed.

(* links.py:202-209: the neighbour's value put in front of / behind the link's own vector *)
Lemma shift_up_lift (b : bool) x0 x :
  (if b then e_vcat EP [[Some x0]; vinit (somes x)] else [Some x0]) = somes (if b then e_vcat ER [[x0]; vinit x] else [x0]).
Proof. destruct b; [|reflexivity]. rewrite vinit_somes. exact (np_vcat_lift [[x0]; vinit x]). Qed.
Lemma shift_down_lift (b : bool) x xN :
  (if b then e_vcat EP [vtail (somes x); [Some xN]] else [Some xN]) = somes (if b then e_vcat ER [vtail x; [xN]] else [xN]).
Proof. destruct b; [|reflexivity]. rewrite vtail_somes. exact (np_vcat_lift [vtail x; [xN]]). Qed.

Lemma link_update_lift m vq0 rhoN1 q_ramp ld :
  link_adm m ->
  link_update EP U PP SP (somes (link_Veq ER U P st m)) m (lift2 vq0) (Some rhoN1) (option_map Some q_ramp)
    (option_map Some ld) = lift_pair (link_update ER U P st (link_Veq ER U P st m) m vq0 rhoN1 q_ramp ld).
Proof.
  intros (Hr & HL & Hlan & Hrc & Ha & Hlen & Hrl). unfold link_update, lift_pair. cbv zeta.
  cbn [lift2 fst snd s_rho s_v liftS lp gT gtau geta gkappa gdelta gphi liftP]. apply f_equal2.
  - rewrite link_flow_lift, shift_up_lift. apply np_density_finite; [apply Rgt_not_eq, Hlan|lra].
  - rewrite shift_up_lift, shift_down_lift.
    (* the last argument is given so that `Some rho_crit` of the goal is read as the injection of one *)
    apply (np_speed_finite _ _ _ _ _ _ _ _ _ _ _ _ _ _ _ (Some _));
      [exact Hr|apply (adm_kappa ADM)|exact HL|exact Hlan|apply (adm_tau ADM)
      |intros x Hx; inversion Hx; subst; exact Hrc|exact Hlen|exact Hrl].
Qed.

Lemma link_raw_lift m : link_adm m ->
  link_raw EP U PP g SP m = mapres lift_pair (link_raw ER U P g st m).
Proof.
  intros Hadm. unfold link_raw. rewrite !link_raw_V_eq, (link_Veq_lift m Hadm).
  destruct (nodes_of_link g m) as [[u d]|] eqn:Hud; [|reflexivity]. cbn [bind fst snd].
  rewrite (node_up_lift u m (nodes_of_link_out g m u d Hud)). apply bind_mapres. intros vq0.
  rewrite node_down_density_lift. apply bind_mapres. intros rhoN1.
  rewrite merging_ramp_flow_lift. apply bind_mapres. intros q_ramp.
  rewrite lane_drop_lift. apply (f_equal Ok), link_update_lift, Hadm.
Qed.

Lemma link_step_lift opts m : link_adm m ->
  link_step EP U PP g SP opts m = mapres lift_pair (link_step ER U P g st opts m).
Proof.
  intros Hadm. unfold link_step. rewrite (link_raw_lift m Hadm). apply bind_mapres. intros [rn vn].
  unfold lift_pair. cbn [fst snd s_rho s_v liftS e_max np_engine].
  change (@zero PR NumPR) with (Some (@zero R NumR)).
  rewrite !np_max_lift, !(if_distr somes), !somes_length. destruct ((_ =? _)%nat && (_ =? _)%nat); reflexivity.
Qed.

Lemma origin_step_lift opts o :
  origin_step EP U PP g SP opts o = mapres (option_map Some) (origin_step ER U P g st opts o).
Proof.
  unfold origin_step. destruct (is_queued (okind_of U o)); [|reflexivity].
  rewrite origin_flow_lift. apply bind_mapres. intros q. destruct (pn_w opts); reflexivity.
Qed.
End Lifted.

Lemma init_state_lift opts st :
  init_state (@np_engine PR NumPR) opts (liftS st) = liftS (init_state (@np_engine R NumR) opts st).
Proof.
  apply state_ext; try reflexivity; intros x; cbn [init_state liftS s_rho s_v s_w].
  - destruct (pi_rho opts); [|reflexivity]. apply (np_max_lift (@zero R NumR)).
  - destruct (pi_v opts); [|reflexivity]. apply (np_max_lift (@zero R NumR)).
  - destruct (pi_w opts); reflexivity.
Qed.

Theorem network_step_lift U P g opts st :
  admissible U P g (init_state (@np_engine R NumR) opts st) ->
  network_step (@np_engine PR NumPR) U (liftP P) g opts (liftS st) =
  mapres lift_out (network_step (@np_engine R NumR) U P g opts st).
Proof.
  intros ADM. apply (network_step_map np_engine np_engine U P (liftP P) g opts opts st (liftS st) (option_map Some) lift_pair).
  - intros o _. rewrite init_state_lift. apply (origin_step_lift U P g _ ADM).
  - intros e He. rewrite init_state_lift.
    apply (link_step_lift U P g _ ADM), (adm_link _ _ _ _ ADM), links_edges, He.
Qed.
