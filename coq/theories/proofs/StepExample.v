(* StepExample.v — a concrete non-trivial network meeting the hypotheses of C01
   (2 entering links, interior ramp, 2 leaving links, a VSL link, a 1-segment link). *)
From Coq Require Import Reals Lia Lra.
From SM Require Import Num Graph Expr Types Validity.
From SM.specs Require Import GraphWF C01_spec.
From Coq Require Import List.
Import ListNotations.
Local Open Scope R_scope.

Definition exU : universe := {|
  linkd := fun l => nth l [ {| lN := 2; llanes := 2; lvsl := Some [1%nat] |};
                            {| lN := 1; llanes := 1; lvsl := None |};
                            {| lN := 3; llanes := 2; lvsl := None |};
                            {| lN := 1; llanes := 1; lvsl := None |} ]
                          {| lN := 0; llanes := 0; lvsl := None |};
  okind_of := fun o => nth o [OMain; OIdeal; ORamp false] OIdeal;
  dkind_of := fun d => nth d [DFree; DCong] DFree |}.
(* nodes 0, 1: sources; node 2: junction carrying the ramp (a ramp node may have one leaving link only, so the
   ramp feeds link 2); node 3: the bifurcation *)
Definition exG : graph := {|
  g_nodes := [ {| nid := 0; n_orig := Some 0%nat; n_dest := None |};
               {| nid := 1; n_orig := Some 1%nat; n_dest := None |};
               {| nid := 2; n_orig := Some 2%nat; n_dest := None |};
               {| nid := 3; n_orig := None; n_dest := None |};
               {| nid := 4; n_orig := None; n_dest := Some 0%nat |};
               {| nid := 5; n_orig := None; n_dest := Some 1%nat |} ];
  g_edges := [ {| e_up := 0; e_down := 2; e_link := 0 |};
               {| e_up := 1; e_down := 2; e_link := 1 |};
               {| e_up := 2; e_down := 3; e_link := 2 |};
               {| e_up := 3; e_down := 4; e_link := 3 |};
               {| e_up := 3; e_down := 5; e_link := 4 |} ] |}.
(* the universe the example is stated with: link data for all five links of exG (exU lists four), the kinds of exU *)
Definition exU' : universe := {|
  linkd := fun l => nth l [ {| lN := 2; llanes := 2; lvsl := Some [1%nat] |};
                            {| lN := 1; llanes := 1; lvsl := None |};
                            {| lN := 3; llanes := 2; lvsl := None |};
                            {| lN := 1; llanes := 1; lvsl := None |};
                            {| lN := 2; llanes := 1; lvsl := None |} ]
                          {| lN := 0; llanes := 0; lvsl := None |};
  okind_of := okind_of exU; dkind_of := dkind_of exU |}.
Definition exP : params R := {|
  lp := fun _ p => match p with PL => 1 | Prhomax => 180 | Prhocrit => 30 | Pvfree => 100
                              | Pa => 2 | Pturn => 1 | Palpha => 0 end;
  ocap := fun _ => 2000; gT := 1; gtau := 1; geta := 1; gkappa := 40;
  gdelta := Some 1; gphi := Some 1 |}.
Definition exSt : state R := {|
  s_rho := fun m => repeat 20 (lN (linkd exU' m)); s_v := fun m => repeat 80 (lN (linkd exU' m));
  s_w := fun _ => 0; s_uo := fun _ => 1; s_do := fun _ => 1000;
  s_vc := fun _ => [50]; s_dd := fun _ => 10 |}.

Definition example_meets_hypotheses : Prop :=
  wf_graph exG /\ validb exU' exG = true /\
  (forall e, In e (g_edges exG) -> wf_link exU' exSt (e_link e)) /\
  (forall e, In e (g_edges exG) -> lp exP (e_link e) Pturn <> 0) /\
  (forall e, In e (g_edges exG) -> lp exP (e_link e) Prhocrit <> 0).

Lemma example_ok : example_meets_hypotheses.
Proof.
  unfold example_meets_hypotheses. split; [|split; [|split; [|split]]].
  - split; [apply (seq_NoDup 6 0)|]. apply Forall_forall. repeat apply Forall_cons; [..|apply Forall_nil]; cbn; tauto.
  - vm_compute. reflexivity.
  - apply Forall_forall. repeat apply Forall_cons; [..|apply Forall_nil]; unfold wf_link; cbn; repeat split; try lia.
    + apply (seq_NoDup 1 1).
    + repeat constructor.
  - intros e _. simpl. lra.
  - intros e _. simpl. lra.
Qed.
