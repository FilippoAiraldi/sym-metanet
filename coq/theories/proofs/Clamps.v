(* Clamps.v — C11 for every numeric structure and every engine whose `max` is the element-wise nmax: the
   positive_init_* options clamp the state the step starts from, the positive_next_* options the result. *)
From Coq Require Import List Bool.
From SM Require Import Num Graph Engine Types Blocks.
From SM.specs Require Import C11_spec.
From SM.proofs Require Import BlocksFacts.
From Coq Require Import List.
Import ListNotations.

Section Clamps.
Context {A : Type} {NA : Num A}.

Lemma np_max_is_nmax : max_is_nmax (@np_engine A NA).
Proof. split; intros; reflexivity. Qed.
Lemma cs_max_is_nmax : max_is_nmax (@cs_engine A NA).
Proof. split; intros; reflexivity. Qed.

Variable E : engine A.
Hypothesis HM : max_is_nmax E.

Lemma init_state_clamp o st : init_state E o st = clamp_state o st.
Proof.
  destruct HM as [H1 H2].
  apply state_ext; try reflexivity; intro k; cbn [init_state s_rho s_v s_w]; rewrite ?H1, ?H2; reflexivity.
Qed.

Theorem init_clamps : init_options_are_clamps E.
Proof.
  intros U P g o st. unfold network_step.
  rewrite (init_state_off E (pn_v o) (pn_rho o) (pn_w o)), init_state_clamp. reflexivity.
Qed.

Lemma if_map_length (b : bool) (f : A -> A) (x : list A) : List.length (if b then map f x else x) = List.length x.
Proof. destruct b; [apply map_length|reflexivity]. Qed.

Lemma origin_step_next U P g st o k :
  origin_step E U P g st o k =
  bind (origin_step E U P g st (no_next o) k)
       (fun r => Ok (option_map (fun w => if pn_w o then clamp0 w else w) r)).
Proof.
  unfold origin_step. destruct (is_queued (okind_of U k)); [|reflexivity].
  destruct (origin_flow E U P g st k); [|reflexivity]. cbn [bind pn_w no_next option_map].
  rewrite (proj2 HM). destruct (pn_w o); reflexivity.
Qed.
Lemma link_step_next U P g st o m :
  link_step E U P g st o m =
  bind (link_step E U P g st (no_next o) m)
       (fun rv => Ok (if pn_rho o then clamp (fst rv) else fst rv, if pn_v o then clamp (snd rv) else snd rv)).
Proof.
  unfold link_step. destruct (link_raw E U P g st m) as [[r v]|]; [|reflexivity].
  cbn [bind fst snd pn_rho pn_v no_next]. rewrite !(proj1 HM), !if_map_length. destruct (_ && _)%bool; reflexivity.
Qed.

Theorem next_clamps : next_options_are_clamps E.
Proof.
  intros U P g o st.
  exact (network_step_map E E U P P g (no_next o) o st st _ _ (fun k _ => origin_step_next U P g _ o k)
           (fun e _ => link_step_next U P g _ o (e_link e))).
Qed.

Corollary options_clamps U P g o st :
  network_step E U P g o st =
  match network_step E U P g no_options (clamp_state o st) with Ok out => Ok (clamp_out o out) | Err e => Err e end.
Proof. rewrite init_clamps, next_clamps. reflexivity. Qed.

Theorem all_off_raw : all_off_is_raw E.
Proof.
  intros U P g st m. unfold link_step. destruct (link_raw E U P g st m) as [[r v]|]; reflexivity.
Qed.
End Clamps.
