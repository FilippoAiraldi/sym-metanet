(* StepSpec.v — the element-layer model (Blocks.v, NumPy-derived engine, real instance)
   computes, for every link segment and every origin queue of a valid network, the value
   the METANET specification (Spec.v) prescribes.  Proof of theorem C01. *)
From Coq Require Import Reals.
From SM Require Import Num NumR Graph Engine Expr Types Blocks Spec.
From SM.gen Require Import EnginesNp.
From SM.specs Require Import GraphWF C01_spec.
From SM.proofs Require Import GraphFacts ValidSpecProof EnginesEq VecR PrimR BlocksFacts.
From Coq Require Import List.
Import ListNotations.
Local Open Scope R_scope.

Section StepSpec.
Variable U : universe.
Variable P : params R.
Variable g : graph.
Variable st : state R.
Hypothesis VF : vfacts U g.
Hypothesis WF : forall e, In e (g_edges g) -> wf_link U st (e_link e).
(* the only numeric side conditions the equalities need: beta / beta = 1 where e is the only link leaving its
   node (up_share), and rho_crit / rho_crit = 1 in V(rho_crit) of a mainstream origin (np_Vcrit) *)
Hypothesis Hturn : forall e, In e (g_edges g) -> lp P (e_link e) Pturn <> 0.
Hypothesis Hrc : forall e, In e (g_edges g) -> lp P (e_link e) Prhocrit <> 0.

Notation E := (@np_engine R NumR).

Lemma srho_first m : (1 <= length (s_rho st m))%nat -> vfirst (s_rho st m) = srho st m 0.
Proof. reflexivity. Qed.

(* the state of a link as tabulated vectors of the specification's entry functions *)
Lemma rho_tab m : wf_link U st m -> s_rho st m = tab (sN U m) (srho st m).
Proof. intros (_ & Hr & _). apply tab_nth. exact Hr. Qed.
Lemma v_tab m : wf_link U st m -> s_v st m = tab (sN U m) (svel st m).
Proof. intros (_ & _ & Hv & _). apply tab_nth. exact Hv. Qed.
Lemma link_flow_tab m : wf_link U st m -> link_flow E U st m = tab (sN U m) (sflow U st m).
Proof.
  intros W. unfold link_flow. rewrite (rho_tab m W), (v_tab m W). apply np_get_flow_tab.
Qed.

Lemma v_last m : wf_link U st m -> vlast (s_v st m) = svel st m (slastseg U m).
Proof. intros W. rewrite (v_tab m W). apply (vlast_tab _ (svel st m)), W. Qed.
Lemma rho_last m : wf_link U st m -> vlast (s_rho st m) = srho st m (slastseg U m).
Proof. intros W. rewrite (rho_tab m W). apply (vlast_tab _ (srho st m)), W. Qed.
Lemma link_flow_first m : wf_link U st m -> vfirst (link_flow E U st m) = sflow U st m 0.
Proof. intros W. rewrite (link_flow_tab m W). apply vfirst_tab, W. Qed.
Lemma link_flow_last m : wf_link U st m -> vlast (link_flow E U st m) = sflow U st m (slastseg U m).
Proof. intros W. rewrite (link_flow_tab m W). apply vlast_tab, W. Qed.

Lemma exiting_link_spec n o e1 : origin_at g n = Some o -> out_links g n = [e1] -> exiting_link g o = Ok (e_link e1).
Proof. intros Ho Hout. unfold exiting_link. rewrite (vf_orig_dict _ _ VF _ _ Ho), Hout. reflexivity. Qed.

Lemma origin_flow_spec n o e1 :
  origin_at g n = Some o -> out_links g n = [e1] ->
  origin_flow E U P g st o = Ok (sorigin_flow U P st o (e_link e1)).
Proof.
  intros Ho Hout. unfold origin_flow. rewrite (exiting_link_spec _ _ _ Ho Hout). cbn [bind].
  assert (He1 : In e1 (g_edges g)).
  { apply (In_out_links g n). rewrite Hout. left. reflexivity. }
  apply f_equal. unfold sorigin_flow. destruct (okind_of U o) as [| |is_in|lim].
  - apply link_flow_first, WF, He1.
  - cbn [e_main np_engine]. rewrite np_main_eq, np_Vcrit by (apply Hrc, He1).
    unfold sdemand, smain_qlim, smain_qspeed, smain_qcap, smain_vlim, sVcrit, svel, slam, lanes, vfirst.
    numR. rewrite oneR, Q2R_1_20. reflexivity.
  - cbn [e_ramp np_engine]. rewrite np_ramp_eq. unfold sdemand, sspace, srho, vfirst.
    destruct is_in; numR; rewrite ?oneR; reflexivity.
  - cbn [e_simp np_engine]. rewrite np_simp_eq. unfold sdemand, sspace, srho, vfirst.
    destruct lim; numR; rewrite ?oneR; reflexivity.
Qed.

Lemma orig_out e o : In e (g_edges g) -> origin_at g (e_up e) = Some o -> out_links g (e_up e) = [e].
Proof.
  intros He Ho. destruct (vf_orig_out _ _ VF _ _ Ho) as [e1 Hout]. rewrite Hout, (out_single g e e1 He Hout). reflexivity.
Qed.
Lemma dest_in e d : In e (g_edges g) -> dest_at g (e_down e) = Some d -> in_links g (e_down e) = [e].
Proof.
  intros He Hd. destruct (vf_dest_in _ _ VF _ _ Hd) as [e1 Hin]. rewrite Hin, (in_single g e e1 He Hin). reflexivity.
Qed.

Lemma origin_speed_spec n o e1 :
  origin_at g n = Some o -> out_links g n = [e1] ->
  origin_speed g st o = Ok (svel st (e_link e1) 0).
Proof.
  intros Ho Hout. unfold origin_speed. rewrite (exiting_link_spec _ _ _ Ho Hout). reflexivity.
Qed.

(* speed and flow of the origin at the upstream node of e, as the node reads them (nodes.py:100-106) *)
Lemma node_origin_spec e :
  In e (g_edges g) ->
  node_origin E U P g st (e_up e) =
  Ok (option_map (fun o => (svel st (e_link e) 0, sorigin_flow U P st o (e_link e))) (origin_at g (e_up e))).
Proof.
  intros He. unfold node_origin. destruct (origin_at g (e_up e)) as [o|] eqn:Ho; [|reflexivity].
  pose proof (orig_out e o He Ho) as Hout.
  rewrite (origin_speed_spec _ _ _ Ho Hout), (origin_flow_spec _ _ _ Ho Hout). reflexivity.
Qed.
Lemma snode_origin_flow_of_edge e :
  In e (g_edges g) ->
  snode_origin_flow U P g st (e_up e) =
  match origin_at g (e_up e) with Some o => sorigin_flow U P st o (e_link e) | None => 0 end.
Proof.
  intros He. unfold snode_origin_flow. destruct (origin_at g (e_up e)) as [o|] eqn:Ho; [|apply zeroR].
  rewrite (orig_out e o He Ho). reflexivity.
Qed.

(* nodes.py:117-122: with one entering link the model multiplies by the share of e only when the node has more
   than one leaving link *)
Lemma up_share e Q :
  In e (g_edges g) ->
  (if (1 <? length (out_links g (e_up e)))%nat
   then e_up_flow E (e_vcat E [[Q]]) (lp P (e_link e) Pturn) (turn_rates E P g (e_up e)) None else Q) =
  sturn P e / Rsum (map (sturn P) (out_links g (e_up e))) * Q.
Proof.
  intros He. unfold turn_rates, sturn. destruct (1 <? _)%nat eqn:Hlen.
  - rewrite np_vcat_singletons. cbn [e_up_flow e_vcat np_engine]. rewrite np_up_flow_eq.
    cbn [Np.engine_vcat concat app Rsum fold_right]. ring.
  - apply Nat.ltb_ge in Hlen. assert (Hin : In e (out_links g (e_up e))) by (apply In_out_links; auto).
    destruct (length_le_1 _ Hlen) as [E|[x E]]; rewrite E in Hin |- *; [destruct Hin|destruct Hin as [->|[]]].
    cbn [map Rsum fold_right]. field. apply Hturn, He.
Qed.

(* upstream speed and inflow of the first segment of e (nodes.py:64-138): the cases of the model are
   those of Spec.supspeed; the inflow is always the share sturn e / sum sturn of the node's total
   inflow *)
Lemma node_up_spec e :
  In e (g_edges g) ->
  node_up_speed_flow E U P g st (e_up e) (e_link e) =
  Ok (supspeed U g st e, sinflow U P g st e).
Proof.
  intros He. pose proof (vf_src _ _ VF e He) as Hsrc.
  assert (Hes : forall x, In x (in_links g (e_up e)) -> In x (g_edges g)) by (intros x Hx; apply In_in_links in Hx; apply Hx).
  rewrite node_up_speed_flow_eq, (node_origin_spec e He). cbn [bind].
  unfold node_up_of, supspeed, sinflow, snode_Q. rewrite (snode_origin_flow_of_edge e He), !ssum_Rsum.
  destruct (in_links g (e_up e)) as [|e1 [|e2 l]].
  - (* a source node: the origin's flow, read backwards as the share of e in it (e is the one leaving link) *)
    destruct (origin_at g (e_up e)) as [o|] eqn:Ho; [|destruct (Hsrc eq_refl eq_refl)].
    rewrite <- (up_share e _ He), (orig_out e o He Ho). cbn [option_map map Rsum fold_right length Nat.ltb Nat.leb].
    rewrite Rplus_0_l. reflexivity.
  - rewrite v_last, link_flow_last by (apply WF, Hes; left; reflexivity). cbv zeta. rewrite (up_share e _ He).
    fold (slast_q U st e1). apply f_equal, f_equal, f_equal. (* under Ok (v, share * _): the node's inflow *)
    destruct (origin_at g (e_up e)); cbn [option_map map Rsum fold_right]; numR; ring.
  - unfold turn_rates. rewrite !np_vcat_singletons. cbn [e_up_speed e_up_flow np_engine]. rewrite np_up_speed_eq, np_up_flow_eq.
    rewrite (map_ext_in _ _ _ (fun x Hx => v_last _ (WF _ (Hes x Hx)))),
      (map_ext_in _ _ _ (fun x Hx => link_flow_last _ (WF _ (Hes x Hx)))), vv_map, !ssum_Rsum.
    destruct (origin_at g (e_up e)); reflexivity.
Qed.

(* virtual downstream density of the last segment of e (nodes.py:26-62, destinations.py) *)
Lemma node_down_spec e :
  In e (g_edges g) ->
  node_down_density E U P g st (e_down e) = Ok (sdowndens U P g st e).
Proof.
  intros He. unfold node_down_density, sdowndens.
  destruct (dest_at g (e_down e)) as [d|] eqn:Hd.
  - unfold dest_density, entering_link. rewrite (vf_dest_dict _ _ VF _ _ Hd), (dest_in e d He Hd). cbn [bind].
    rewrite (rho_last _ (WF _ He)). reflexivity.
  - destruct (out_links g (e_down e)) as [|e1 [|e2 l]] eqn:Hout.
    + exfalso. apply (vf_sink _ _ VF e He); assumption.
    + reflexivity.
    + apply f_equal. rewrite np_vcat_singletons. cbn [e_down_dens np_engine].
      rewrite np_down_dens_eq, map_map, !ssum_Rsum. reflexivity.
Qed.

(* equilibrium speed of a plain or speed-limited link (links.py:264-266, 345-354) *)
Lemma np_Veq_s_spec m rho :
  Np.links_Veq_s rho (lp P m Pvfree) (lp P m Prhocrit) (lp P m Pa) = sVeq_at P m rho.
Proof.
  rewrite np_Veq_s_eq. unfold sVeq_at. numR. rewrite oneR. reflexivity.
Qed.
Lemma link_Veq_tab m : wf_link U st m -> link_Veq E U P st m = tab (sN U m) (sV U P st m).
Proof.
  intros W. unfold link_Veq. rewrite (rho_tab m W). destruct W as (_ & _ & _ & Hvsl).
  unfold sV. destruct (lvsl (linkd U m)) as [vsl|].
  - destruct Hvsl as (Hnd & Hlt & Hlen). cbn [e_cVeq np_engine]. rewrite np_cVeq_tab by assumption.
    apply tab_ext. intros i _. rewrite np_Veq_s_spec.
    destruct (index_of i vsl); numR; rewrite ?oneR, ?zeroR; reflexivity.
  - cbn [e_Veq np_engine]. rewrite np_Veq_tab. apply tab_ext. intros i _. apply np_Veq_s_spec.
Qed.

Lemma merging_ramp_flow_spec e :
  In e (g_edges g) -> merging_ramp_flow E U P g st (e_up e) = Ok (option_map snd (smerge U P g st e)).
Proof.
  intros He. unfold merging_ramp_flow, smerge.
  destruct (gdelta P) as [de|]; [|reflexivity].
  destruct (origin_at g (e_up e)) as [o|] eqn:Ho; [|reflexivity].
  destruct (in_links g (e_up e)) as [|e1 l]; [reflexivity|].
  destruct (is_ramp (okind_of U o)); [|reflexivity].
  rewrite (origin_flow_spec _ _ _ Ho (orig_out e o He Ho)), (snode_origin_flow_of_edge e He), Ho. reflexivity.
Qed.

Lemma lane_drop_spec e : lane_drop U P g (e_link e) (e_down e) = option_map snd (sdrop U P g e).
Proof.
  unfold lane_drop, sdrop. destruct (gphi P); [|reflexivity].
  destruct (out_links g (e_down e)) as [|e1 [|e2 l]]; try reflexivity.
  destruct (Qeq_bool _ _); reflexivity.
Qed.

Lemma if_opt2_sub (c : bool) {X Y} (o : option (X * Y)) (b : R) (t : X -> Y -> R) :
  (if c then match o with Some (x, y) => b - t x y | None => b end else b) =
  b - (if c then match o with Some (x, y) => t x y | None => 0 end else 0).
Proof. destruct c; [destruct o as [[x y]|]|]; ring. Qed.

Lemma ss_merge_spec e lam L v r :
  ss_merge lam L (gkappa P) (gT P) v r (option_map snd (smerge U P g st e)) (gdelta P) =
  match smerge U P g st e with
  | Some (de, qr) => de * gT P * qr * v / (L * lam * (r + gkappa P))
  | None => 0
  end.
Proof.
  unfold smerge. destruct (gdelta P); [|reflexivity]. destruct (origin_at g (e_up e)); [|reflexivity].
  destruct (in_links g (e_up e)); [reflexivity|]. destruct (is_ramp _); reflexivity.
Qed.
Lemma ss_drop_spec e lam L v r rc :
  ss_drop lam L (gT P) v r (option_map snd (sdrop U P g e)) (gphi P) (Some rc) =
  match sdrop U P g e with
  | Some (ph, dl) => ph * gT P * dl * r * (v * v) / (L * lam * rc)
  | None => 0
  end.
Proof.
  unfold sdrop. destruct (gphi P); [|reflexivity].
  destruct (out_links g (e_down e)) as [|e1 [|e2 l]]; try reflexivity. destruct (Qeq_bool _ _); reflexivity.
Qed.

(* Spec's speed law in the additive form of PrimR: base - merging term (first segment) - lane-drop
   term (last segment) *)
Lemma spec_v_next_ss e i :
  spec_v_next U P g st e i =
  ss_base (lp P (e_link e) PL) (gtau P) (geta P) (gkappa P) (gT P) (svel st (e_link e) i)
    (sv_up U g st e i) (srho st (e_link e) i) (srho_down U P g st e i) (sV U P st (e_link e) i)
  - (if Nat.eqb i 0
     then ss_merge (lanes U (e_link e)) (lp P (e_link e) PL) (gkappa P) (gT P) (svel st (e_link e) i)
            (srho st (e_link e) i) (option_map snd (smerge U P g st e)) (gdelta P) else 0)
  - (if Nat.eqb i (sN U (e_link e) - 1)
     then ss_drop (lanes U (e_link e)) (lp P (e_link e) PL) (gT P) (svel st (e_link e) i)
            (srho st (e_link e) i) (option_map snd (sdrop U P g e)) (gphi P)
            (Some (lp P (e_link e) Prhocrit)) else 0).
Proof.
  rewrite ss_merge_spec, ss_drop_spec. unfold spec_v_next, slastseg, slam, lanes. cbv zeta. numR.
  rewrite !if_opt2_sub. do 2 (apply (f_equal2 Rminus); [|reflexivity]).
  unfold ss_base, Rdiv. rewrite !Rinv_mult. ring.
Qed.

(* links.py:146-257: density and speed of every segment before clamps and shape check *)
Theorem link_raw_spec e :
  In e (g_edges g) ->
  link_raw E U P g st (e_link e) =
  Ok (tab (sN U (e_link e)) (spec_rho_next U P g st e), tab (sN U (e_link e)) (spec_v_next U P g st e)).
Proof.
  intros He. pose proof (WF _ He) as W. pose proof W as (HN & _). fold (sN U (e_link e)) in HN.
  unfold link_raw. rewrite link_raw_V_eq, (vf_link _ _ VF _ He). cbn [bind fst snd].
  rewrite (node_up_spec e He), (node_down_spec e He), (merging_ramp_flow_spec e He), (lane_drop_spec e). cbn [bind fst snd].
  unfold link_update. cbn [fst snd e_vcat e_step_rho e_step_v np_engine]. apply f_equal, f_equal2.
  - rewrite (link_flow_tab _ W), (rho_tab _ W), np_shift_up_tab, np_step_density_tab by exact HN.
    apply tab_ext. intros i _.
    unfold spec_rho_next, sq_up, slam, lanes. numR. unfold Rdiv. rewrite Rinv_mult. ring.
  - rewrite (link_Veq_tab _ W), (rho_tab _ W), (v_tab _ W), np_shift_up_tab, np_shift_down_tab, np_step_speed_tab
      by exact HN.
    apply tab_ext. intros i _. symmetry. apply spec_v_next_ss.
Qed.

Theorem link_step_spec e :
  In e (g_edges g) ->
  link_step E U P g st no_options (e_link e) =
  Ok (tab (sN U (e_link e)) (spec_rho_next U P g st e), tab (sN U (e_link e)) (spec_v_next U P g st e)).
Proof.
  intros He. unfold link_step. rewrite (link_raw_spec e He). cbn [bind fst snd pn_rho pn_v no_options].
  destruct (WF _ He) as (_ & -> & -> & _). rewrite !tab_length, Nat.eqb_refl. reflexivity.
Qed.

(* origin queues (origins.py:138-176, 305-343) *)
Theorem origin_step_spec n o e1 :
  origin_at g n = Some o -> out_links g n = [e1] ->
  origin_step E U P g st no_options o =
  Ok (if is_queued (okind_of U o) then Some (spec_w_next U P st o (e_link e1)) else None).
Proof.
  intros Ho Hout. unfold origin_step. destruct (is_queued (okind_of U o)); [|reflexivity].
  rewrite (origin_flow_spec _ _ _ Ho Hout). cbn [bind pn_w no_options e_step_w np_engine].
  reflexivity.
Qed.
End StepSpec.

Theorem np_step_is_METANET : step_is_METANET (@np_engine R NumR).
Proof.
  intros U P g st WFG V WF Hturn Hrc.
  pose proof (validb_vfacts U g WFG V) as VF.
  unfold network_step. rewrite (init_state_off _ false false false).
  destruct (mapM_Forall2
              (fun o => bind (origin_step np_engine U P g st no_options o) (fun r => Ok (o, r)))
              (origin_result_ok U P g st) (map fst (origins_dict g))) as (ws & Hws & Fws).
  { intros o Ho. destruct (vf_orig_dict_inv _ _ VF o Ho) as (n & Hn).
    destruct (vf_orig_out _ _ VF _ _ Hn) as (e1 & Hout).
    rewrite (origin_step_spec U P g st VF WF Hrc n o e1 Hn Hout). cbn [bind].
    eexists. split; [reflexivity|]. split; [reflexivity|]. exists n, e1. auto. }
  destruct (mapM_Forall2
              (fun e => bind (link_step np_engine U P g st no_options (e_link e))
                             (fun r => Ok (e_link e, r)))
              (link_result_ok U P g st) (links g)) as (ls & Hls & Fls).
  { intros e He. apply (vf_links_edges _ _ VF) in He.
    rewrite (link_step_spec U P g st VF WF Hturn Hrc e He). cbn [bind]. eexists. split; [reflexivity|].
    unfold link_result_ok. cbn [fst snd]. rewrite !tab_length. repeat split; apply nth_tab; assumption. }
  rewrite Hws. cbn [bind]. rewrite Hls. cbn [bind].
  eexists. split; [reflexivity|]. cbn [o_links o_queues]. auto.
Qed.

Theorem cs_step_is_METANET : step_is_METANET (@cs_engine R NumR).
Proof. rewrite cs_engine_eq_np. exact np_step_is_METANET. Qed.
