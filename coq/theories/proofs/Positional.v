From Coq Require Import List String Bool Ascii.
From SM Require Import Num Graph Engine Expr Types Blocks Validity ToFunction.
From SM.gen Require Import EnginesCs.
From SM.specs Require Import C04_spec.
From SM.proofs Require Import Regroup BlocksFacts.
Import ListNotations.
Local Open Scope string_scope.

Lemma link_step_lengths {A} {NA : Num A} (E : engine A) U P g (st : state A) opts m r v :
  link_step E U P g st opts m = Ok (r, v) ->
  List.length r = List.length (s_rho st m) /\ List.length v = List.length (s_v st m).
Proof.
  unfold link_step. destruct (link_raw E U P g st m) as [[r0 v0]|]; [|discriminate]. cbn [bind fst snd].
  destruct ((List.length _ =? List.length (s_rho st m))%nat && (List.length _ =? List.length (s_v st m))%nat) eqn:C;
    [|discriminate].
  intros H. injection H as <- <-. apply andb_true_iff in C. destruct C as [C1 C2].
  apply Nat.eqb_eq in C1, C2. auto.
Qed.

Definition link_labels (U : universe) (m : nat) : list (elem * string * nat) :=
  [ (EL m, "rho", lN (linkd U m)); (EL m, "v", lN (linkd U m)) ].
Definition origin_labels (U : universe) (o : nat) : list (elem * string * nat) :=
  if is_queued (okind_of U o) then [ (EO o, "w", 1%nat) ] else [].

Lemma label_shape_app {T} (a b : list (elem * string * list T)) :
  label_shape (a ++ b) = (label_shape a ++ label_shape b)%list.
Proof. unfold label_shape. apply map_app. Qed.
Lemma label_shape_flat_map {T X} (f : X -> list (elem * string * list T)) l :
  label_shape (flat_map f l) = flat_map (fun x => label_shape (f x)) l.
Proof. apply map_flat_map. Qed.

Definition x_entries (U : universe) (el : elem) : list (elem * string * list ident) :=
  map (fun ve => (el, snd (fst ve), snd ve)) (filter (fun ve => grp_eqb (fst (fst ve)) GX) (elem_vars U el)).
Lemma link_x_labels U m : label_shape (x_entries U (EL m)) = link_labels U m.
Proof.
  unfold x_entries, link_labels, elem_vars, link_vars.
  destruct (lvsl (linkd U m)); cbn; rewrite !map_length, !seq_length; reflexivity.
Qed.
Lemma origin_x_labels U o : label_shape (x_entries U (EO o)) = origin_labels U o.
Proof. unfold x_entries, origin_labels, elem_vars, origin_vars. destruct (okind_of U o); reflexivity. Qed.
Lemma dest_x_labels U d : label_shape (x_entries U (ED d)) = [].
Proof. unfold x_entries, elem_vars, dest_vars. destruct (dkind_of U d); reflexivity. Qed.

Lemma inputs_labels U g :
  label_shape (group_entries U g GX) =
  (flat_map (link_labels U) (link_ids g) ++ flat_map (origin_labels U) (origin_ids g))%list.
Proof.
  change (group_entries U g GX) with (flat_map (x_entries U) (elements g)). unfold elements.
  rewrite label_shape_flat_map, !flat_map_app, !flat_map_map.
  rewrite (flat_map_ext _ _ (link_x_labels U)), (flat_map_ext _ _ (origin_x_labels U)).
  rewrite (proj2 (flat_map_eq_nil _ _) (fun d _ => dest_x_labels U d)), app_nil_r. reflexivity.
Qed.

Lemma net_state_lengths U g opts m :
  mem m (link_ids g) = true ->
  List.length (s_rho (init_state cs_engine opts (net_state U g)) m) = lN (linkd U m) /\
  List.length (s_v (init_state cs_engine opts (net_state U g)) m) = lN (linkd U m).
Proof.
  intros M. unfold init_state, net_state. cbn [s_rho s_v e_max cs_engine]. rewrite M.
  unfold Cs.engine_max, sv. destruct (pi_rho opts), (pi_v opts); rewrite ?map_length, ?seq_length; auto.
Qed.

Lemma link_out_labels U (P : params expr) g opts m r v :
  mem m (link_ids g) = true ->
  link_step cs_engine U P g (init_state cs_engine opts (net_state U g)) opts m = Ok (r, v) ->
  label_shape [(EL m, "rho", r); (EL m, "v", v)] = link_labels U m.
Proof.
  intros M Hs. apply link_step_lengths in Hs. destruct Hs as [Lr Lv]. destruct (net_state_lengths U g opts m M) as [Nr Nv].
  unfold label_shape, link_labels. cbn [map fst snd]. rewrite Lr, Lv, Nr, Nv. reflexivity.
Qed.

Lemma origin_out_labels {A} {NA : Num A} (E : engine A) U P g (st : state A) opts o r :
  origin_step E U P g st opts o = Ok r ->
  label_shape (match r with Some w => [(EO o, "w", [w])] | None => [] end) = origin_labels U o.
Proof.
  unfold origin_step, origin_labels. destruct (is_queued (okind_of U o)); [|intros H; injection H as <-; reflexivity].
  destruct (origin_flow E U P g st o); [|discriminate]. cbn [bind]. intros H. injection H as <-. reflexivity.
Qed.

Lemma outputs_labels U (P : params expr) g opts out :
  network_step cs_engine U P g opts (net_state U g) = Ok out ->
  label_shape (next_entries out) =
  (flat_map (link_labels U) (link_ids g) ++ flat_map (origin_labels U) (origin_ids g))%list.
Proof.
  unfold network_step. set (st' := init_state cs_engine opts (net_state U g)).
  destruct (mapM _ (map fst (origins_dict g))) as [ws|] eqn:Hw; [|discriminate]. cbn [bind].
  destruct (mapM _ (links g)) as [ls|] eqn:Hl; [|discriminate]. cbn [bind]. intros H. injection H as <-.
  unfold next_entries. cbn [o_links o_queues]. rewrite label_shape_app, !label_shape_flat_map. apply f_equal2.
  - unfold link_ids. rewrite flat_map_map. apply (Forall2_flat_map _ _ _ _ _ (mapM_inv _ _ _ Hl)). intros e y He Hy.
    destruct (link_step cs_engine U P g st' opts (e_link e)) as [[r v]|] eqn:Hs; [|discriminate]. injection Hy as <-.
    apply (link_out_labels U P g opts (e_link e) r v); [apply mem_In, in_map, He|exact Hs].
  - apply (Forall2_flat_map _ _ _ _ _ (mapM_inv _ _ _ Hw)). intros o y _ Hy.
    destruct (origin_step cs_engine U P g st' opts o) as [r|] eqn:Hs; [|discriminate]. injection Hy as <-.
    exact (origin_out_labels _ _ _ _ _ _ _ _ Hs).
Qed.

(* levels 1 and 2: regrouping only looks at names and sizes (Regroup.regroup_respects) *)
Lemma eqb_plus a b : String.eqb (a ++ "+") (b ++ "+") = String.eqb a b.
Proof.
  revert b. induction a as [|c a IH]; intros [|d b]; cbn [append String.eqb]; try reflexivity.
  (* one name ends first: its "+" meets a character of the other and, if that is a "+" too, the end meets what follows *)
  - destruct (Ascii.eqb "+" d), b; reflexivity.
  - destruct (Ascii.eqb c "+"), a; reflexivity.
  - rewrite IH. reflexivity.
Qed.

Lemma concat_length_shape {T} (l : list (string * list T)) :
  List.length (List.concat (map snd l)) = list_sum (map snd (name_shape l)).
Proof. induction l as [|[k v] l IH]; [reflexivity|]. cbn. rewrite app_length. f_equal. exact IH. Qed.

Theorem positional_successor_proof : positional_successor.
Proof.
  intros U P g opts out Hs.
  assert (H0 : label_shape (group_entries U g GX) = label_shape (next_entries out))
    by (rewrite inputs_labels, (outputs_labels U P g opts out Hs); reflexivity).
  split; [exact H0|].
  refine ((fun H1 => conj H1 _) _). (* level 1 first: level 2 uses it *)
  - rewrite !concat_length_shape, <- H1, map_map. reflexivity.
  - unfold outputs_level1, name_shape. rewrite map_map.
    apply (regroup_respects (fun k => k ++ "+") (fun k => k) (@List.length ident) (@List.length expr) Nat.add);
      auto using eqb_plus, app_length.
    (* the entries regrouped on the two sides have the labels and sizes H0 equates *)
    rewrite !map_map. cbn [fst snd].
    transitivity (map (fun t : elem * string * nat => (snd (fst t) ++ "+", snd t)) (label_shape (group_entries U g GX)));
      [|rewrite H0]; unfold label_shape; rewrite map_map; reflexivity.
Qed.
