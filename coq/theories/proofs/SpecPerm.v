(* SpecPerm.v — what the METANET specification (Spec.v) reads.  Its next values are functions of a few named
   quantities (spec_rho_next_ext, spec_v_next_ext); hence they do not depend on the order in which nodes and
   edges were inserted, nor on a common non-zero scaling of the turn rates of the links leaving a node (C14),
   and depend on the state only through a segment's neighbourhood (C10, at the end). *)
From Coq Require Import Reals Lia Permutation.
From SM Require Import Graph Expr Types Spec.
From SM.specs Require Import GraphWF C10_spec.
From SM.proofs Require Import VecR GraphFacts.
From Coq Require Import List.
Import ListNotations.
Local Open Scope R_scope.

Lemma spec_rho_next_ext U (P : params R) g g' (st st' : state R) e i :
  srho st (e_link e) i = srho st' (e_link e) i -> sflow U st (e_link e) i = sflow U st' (e_link e) i ->
  sq_up U P g st e i = sq_up U P g' st' e i ->
  spec_rho_next U P g st e i = spec_rho_next U P g' st' e i.
Proof. intros Hr Hf Hq. unfold spec_rho_next. rewrite Hr, Hf, Hq. reflexivity. Qed.

(* Spec.spec_v_next with the values it looks up as arguments: rewriting in the law itself, once its local
   definitions are expanded, is slow to check *)
Definition vnext U (P : params R) (m i : nat) (rho v V vup rdown : R) (mg dp : option (R * R)) : R :=
  let T := gT P in let L := lp P m PL in
  let base := v + T / gtau P * (V - v) + T / L * v * (vup - v)
              - geta P * T / (gtau P * L) * ((rdown - rho) / (rho + gkappa P)) in
  let base := if Nat.eqb i 0 then
                match mg with
                | Some (delta, qr) => base - delta * T * qr * v / (L * slam U m * (rho + gkappa P))
                | None => base
                end else base in
  if Nat.eqb i (slastseg U m) then
    match dp with
    | Some (phi, dl) => base - phi * T * dl * rho * (v * v) / (L * slam U m * lp P m Prhocrit)
    | None => base
    end else base.

Lemma spec_v_next_reads U (P : params R) g (st : state R) e i :
  spec_v_next U P g st e i =
  vnext U P (e_link e) i (srho st (e_link e) i) (svel st (e_link e) i) (sV U P st (e_link e) i)
        (sv_up U g st e i) (srho_down U P g st e i) (smerge U P g st e) (sdrop U P g e).
Proof. reflexivity. Qed.

Lemma spec_v_next_ext U (P : params R) g g' (st st' : state R) e i :
  srho st (e_link e) i = srho st' (e_link e) i -> svel st (e_link e) i = svel st' (e_link e) i ->
  sV U P st (e_link e) i = sV U P st' (e_link e) i ->
  sv_up U g st e i = sv_up U g' st' e i ->
  srho_down U P g st e i = srho_down U P g' st' e i ->
  (i = 0%nat -> smerge U P g st e = smerge U P g' st' e) ->
  sdrop U P g e = sdrop U P g' e ->
  spec_v_next U P g st e i = spec_v_next U P g' st' e i.
Proof.
  intros Hr Hv HV Hu Hd Hm Hp. rewrite !spec_v_next_reads, Hr, Hv, HV, Hu, Hd, Hp.
  destruct i; [rewrite Hm|]; reflexivity.
Qed.

(* a case analysis "none / one / several" on a list does not see its order *)
Lemma match3_perm {T V} (l l' : list T) (a : V) (b : T -> V) (c : T -> T -> list T -> V) :
  Permutation l l' -> (forall x y r x' y' r', Permutation (x :: y :: r) (x' :: y' :: r') -> c x y r = c x' y' r') ->
  match l with [] => a | [e] => b e | x :: y :: r => c x y r end =
  match l' with [] => a | [e] => b e | x :: y :: r => c x y r end.
Proof.
  intros HP Hc. pose proof (Permutation_length HP) as HL.
  destruct l as [|x [|y l]].
  - apply Permutation_nil in HP. subst. reflexivity.
  - apply Permutation_length_1_inv in HP. subst. reflexivity.
  - destruct l' as [|x' [|y' l']]; simpl in HL; try lia. apply Hc. exact HP.
Qed.

Lemma find_node_perm g g' n :
  NoDup (map nid (g_nodes g)) -> Permutation (g_nodes g) (g_nodes g') ->
  find_node g n = find_node g' n.
Proof.
  intros Hnd HP.
  assert (Hnd' : NoDup (map nid (g_nodes g'))) by (apply (Permutation_NoDup (Permutation_map nid HP) Hnd)).
  apply option_ext. intros x. rewrite !find_node_iff by assumption.
  split; intros [Hx E]; (split; [|exact E]); [|apply Permutation_sym in HP]; apply (Permutation_in _ HP Hx).
Qed.

Section Perm.
Variable U : universe.
Variable P : params R.
Variables g g' : graph.
Variable st : state R.
Hypothesis WFG : wf_graph g.
Hypothesis PN : Permutation (g_nodes g) (g_nodes g').
Hypothesis PE : Permutation (g_edges g) (g_edges g').

Lemma out_perm n : Permutation (out_links g n) (out_links g' n).
Proof. apply filter_perm. exact PE. Qed.
Lemma in_perm n : Permutation (in_links g n) (in_links g' n).
Proof. apply filter_perm. exact PE. Qed.
Lemma origin_at_perm n : origin_at g n = origin_at g' n.
Proof. unfold origin_at. rewrite (find_node_perm g g' n (proj1 WFG) PN). reflexivity. Qed.
Lemma dest_at_perm n : dest_at g n = dest_at g' n.
Proof. unfold dest_at. rewrite (find_node_perm g g' n (proj1 WFG) PN). reflexivity. Qed.

(* an origin node of a valid graph has exactly one leaving link: the same in both graphs *)
Hypothesis ORIG1 : forall n o, origin_at g n = Some o -> exists e1, out_links g n = [e1].

Lemma snode_origin_flow_perm n : snode_origin_flow U P g st n = snode_origin_flow U P g' st n.
Proof.
  unfold snode_origin_flow. rewrite <- origin_at_perm.
  destruct (origin_at g n) as [o|] eqn:Ho; [|reflexivity].
  destruct (ORIG1 _ _ Ho) as [e1 H1]. pose proof (out_perm n) as HP. rewrite H1 in *.
  apply Permutation_length_1_inv in HP. rewrite HP. reflexivity.
Qed.

Lemma sinflow_perm e : sinflow U P g st e = sinflow U P g' st e.
Proof.
  unfold sinflow, snode_Q. rewrite (ssum_perm _ _ _ (out_perm (e_up e))).
  rewrite (ssum_perm _ _ _ (in_perm (e_up e))), snode_origin_flow_perm. reflexivity.
Qed.

Lemma supspeed_perm e : supspeed U g st e = supspeed U g' st e.
Proof.
  unfold supspeed. apply match3_perm; [apply in_perm|]. intros x y r x' y' r' HP. apply f_equal2; apply ssum_perm, HP.
Qed.

Lemma sdowndens_perm e : sdowndens U P g st e = sdowndens U P g' st e.
Proof.
  unfold sdowndens. rewrite <- dest_at_perm. destruct (dest_at g (e_down e)); [reflexivity|].
  apply match3_perm; [apply out_perm|]. intros x y r x' y' r' HP. apply f_equal2; apply ssum_perm, HP.
Qed.

Lemma smerge_perm e : smerge U P g st e = smerge U P g' st e.
Proof.
  unfold smerge. rewrite <- origin_at_perm, <- snode_origin_flow_perm.
  destruct (gdelta P); [|reflexivity]. destruct (origin_at g (e_up e)); [|reflexivity].
  pose proof (Permutation_length (in_perm (e_up e))) as HL.
  destruct (in_links g (e_up e)), (in_links g' (e_up e)); (reflexivity || discriminate).
Qed.

Lemma sdrop_perm e : sdrop U P g e = sdrop U P g' e.
Proof.
  unfold sdrop. destruct (gphi P); [|reflexivity].
  apply match3_perm; [apply out_perm|reflexivity].
Qed.

Theorem spec_perm e i :
  spec_rho_next U P g st e i = spec_rho_next U P g' st e i /\
  spec_v_next U P g st e i = spec_v_next U P g' st e i.
Proof.
  split.
  - apply spec_rho_next_ext; try reflexivity. unfold sq_up. rewrite sinflow_perm. reflexivity.
  - apply spec_v_next_ext; try reflexivity.
    + unfold sv_up. rewrite supspeed_perm. reflexivity.
    + unfold srho_down. rewrite sdowndens_perm. reflexivity.
    + intros _. apply smerge_perm.
    + apply sdrop_perm.
Qed.
End Perm.

Definition scale_turn (P : params R) (c : nat -> R) (g : graph) : params R :=
  {| lp := fun m p => match p with
                      | Pturn => match nodes_of_link g m with
                                 | Some (u, _) => c u * lp P m Pturn
                                 | None => lp P m Pturn
                                 end
                      | _ => lp P m p
                      end;
     ocap := ocap P; gT := gT P; gtau := gtau P; geta := geta P; gkappa := gkappa P;
     gdelta := gdelta P; gphi := gphi P |}.

Section Scale.
Variable U : universe.
Variable P : params R.
Variable g : graph.
Variable st : state R.
Variable c : nat -> R.
Hypothesis Hc : forall n, c n <> 0.
Hypothesis LINK : forall e, In e (g_edges g) -> nodes_of_link g (e_link e) = Some (e_up e, e_down e).
Hypothesis Hsum : forall e, In e (g_edges g) -> ssum (sturn P) (out_links g (e_up e)) <> 0.

Let P' := scale_turn P c g.

Lemma sturn_scaled e : In e (g_edges g) -> sturn P' e = c (e_up e) * sturn P e.
Proof. intros He. unfold sturn, P', scale_turn. cbn [lp]. rewrite (LINK _ He). reflexivity. Qed.

Lemma ssum_scaled n : ssum (sturn P') (out_links g n) = c n * ssum (sturn P) (out_links g n).
Proof.
  rewrite !ssum_Rsum, <- Rsum_map_scal. apply Rsum_map_ext. intros x Hx. apply In_out_links in Hx.
  destruct Hx as [Hx <-]. apply sturn_scaled, Hx.
Qed.

Lemma sorigin_flow_scaled o m : sorigin_flow U P' st o m = sorigin_flow U P st o m.
Proof. reflexivity. Qed.

Theorem sinflow_scaled e : In e (g_edges g) -> sinflow U P' g st e = sinflow U P g st e.
Proof.
  intros He. unfold sinflow. rewrite ssum_scaled, (sturn_scaled _ He).
  change (snode_Q U P' g st (e_up e)) with (snode_Q U P g st (e_up e)). (* reads no turn rate: sorigin_flow_scaled *)
  numR. field. split; [apply Hsum; exact He|apply Hc].
Qed.

Theorem spec_scaled e i : In e (g_edges g) ->
  spec_rho_next U P' g st e i = spec_rho_next U P g st e i /\
  spec_v_next U P' g st e i = spec_v_next U P g st e i.
Proof.
  intros He. split.
  - unfold spec_rho_next, sq_up. rewrite (sinflow_scaled _ He). reflexivity.
  - reflexivity.
Qed.
End Scale.

Section Loc.
Variable U : universe.
Variable P : params R.
Variable g : graph.
Variables st st' : state R.

Lemma sflow_eq m i : seg_eq st st' m i -> sflow U st m i = sflow U st' m i.
Proof. intros [H1 H2]. unfold sflow. rewrite H1, H2. reflexivity. Qed.

Lemma sorigin_flow_eq o m :
  s_w st o = s_w st' o -> s_do st o = s_do st' o -> s_uo st o = s_uo st' o -> seg_eq st st' m 0 ->
  sorigin_flow U P st o m = sorigin_flow U P st' o m.
Proof.
  intros Hw Hd Hu [Hr Hv]. unfold sorigin_flow, sdemand, sspace, smain_qlim, smain_qspeed, smain_vlim, sflow.
  rewrite Hw, Hd, Hu, Hr, Hv. reflexivity.
Qed.

Lemma snode_origin_flow_eq n : origin_eq g st st' n ->
  snode_origin_flow U P g st n = snode_origin_flow U P g st' n.
Proof.
  unfold origin_eq, snode_origin_flow. destruct (origin_at g n) as [o|]; [|reflexivity].
  destruct (out_links g n) as [|e1 l]; [reflexivity|].
  intros (Hw & Hd & Hu & Hs). apply sorigin_flow_eq; assumption.
Qed.

Lemma slast_q_eq e : upstream_eq U g st st' e ->
  forall x, In x (in_links g (e_up e)) -> slast_q U st x = slast_q U st' x.
Proof. intros [Hin _] x Hx. apply sflow_eq, Hin, Hx. Qed.

Lemma sinflow_eq e : upstream_eq U g st st' e -> sinflow U P g st e = sinflow U P g st' e.
Proof.
  intros Hup. unfold sinflow, snode_Q.
  rewrite (snode_origin_flow_eq _ (proj2 Hup)), (ssum_ext _ _ _ (slast_q_eq e Hup)). reflexivity.
Qed.

Lemma supspeed_eq e : upstream_eq U g st st' e -> svel st (e_link e) 0 = svel st' (e_link e) 0 ->
  supspeed U g st e = supspeed U g st' e.
Proof.
  intros Hup H0. unfold supspeed. pose proof (slast_q_eq e Hup) as Hq.
  assert (Hv : forall x, In x (in_links g (e_up e)) -> slast_v U st x = slast_v U st' x).
  { intros x Hx. apply (proj1 Hup x Hx). }
  destruct (in_links g (e_up e)) as [|e1 [|e2 l]].
  - exact H0.
  - apply Hv. left. reflexivity.
  - apply f_equal2; apply ssum_ext; [|exact Hq]. intros x Hx. rewrite (Hv x Hx), (Hq x Hx). reflexivity.
Qed.

Lemma sdowndens_eq e :
  downstream_eq g st st' e ->
  srho st (e_link e) (slastseg U (e_link e)) = srho st' (e_link e) (slastseg U (e_link e)) ->
  sdowndens U P g st e = sdowndens U P g st' e.
Proof.
  unfold downstream_eq, sdowndens. intros Hd Hl. destruct (dest_at g (e_down e)) as [d|].
  - rewrite Hl, Hd. reflexivity.
  - destruct (out_links g (e_down e)) as [|e1 [|e2 l]].
    + reflexivity.
    + apply Hd. left. reflexivity.
    + apply f_equal2; apply ssum_ext; [|exact Hd]. intros x Hx. rewrite (Hd x Hx). reflexivity.
Qed.

Theorem locality_proof : locality U P g st st'.
Proof.
  split; [|split].
  - intros e i [Hs Hup]. apply spec_rho_next_ext; [apply Hs|apply sflow_eq, Hs|].
    unfold sq_up. destruct (Nat.eqb i 0); [apply sinflow_eq|apply sflow_eq]; exact Hup.
  - intros e i ([Hr Hv] & Hup & Hdn & Hvc). apply spec_v_next_ext; try assumption.
    + unfold sV, sVeq. rewrite Hr. destruct (lvsl (linkd U (e_link e))); [|reflexivity].
      destruct (index_of i l); [rewrite Hvc|]; reflexivity.
    + unfold sv_up. destruct (Nat.eqb_spec i 0) as [->|]; [apply supspeed_eq|]; assumption.
    + unfold srho_down. destruct (Nat.eqb_spec i (slastseg U (e_link e))) as [->|]; [apply sdowndens_eq|]; assumption.
    + intros ->. unfold smerge. rewrite (snode_origin_flow_eq _ (proj2 Hup)). reflexivity.
    + reflexivity.
  - intros n o e1 l Ho Hout He. unfold origin_eq in He. rewrite Ho, Hout in He.
    destruct He as (Hw & Hd & Hu & Hs). unfold spec_w_next.
    rewrite (sorigin_flow_eq o (e_link e1) Hw Hd Hu Hs), Hw, Hd. reflexivity.
Qed.
End Loc.
