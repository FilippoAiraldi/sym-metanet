(* PrimR.v — characterising lemmas of the GENERATED NumPy-engine primitives at the real
   instance.  StepSpec, Neutral and OriginBounds reason from these equations instead of unfolding a
   generated formula (only engine_vcat and engine_max, a concat and a map, are unfolded where they occur), so an edit of an engine formula is met in this file: where the new text
   computes the same law its equation is proved again here (most proofs follow the shape of the
   generated term and will need the same edit) and nothing above changes; where it does not, the
   equation is false.
   A vector primitive is characterised by ONE equation on tabulated vectors (VecR.tab):
   it maps [tab n f], [tab n h], ... to [tab n (fun i => scalar law of (f i) (h i) ...)].
   np_Veq_map and the stages of the speed update are stated for every numeric structure: LiftPrims.v reads them at
   the partial reals. *)
From Coq Require Import Reals Lia Lra String.
From SM Require Import Num NumR Spec.
From SM.gen Require Import EnginesNp.
From SM.proofs Require Import VecR.
From Coq Require Import List.
Import ListNotations.
Local Open Scope R_scope.

Lemma np_get_flow_tab n rho v lam :
  Np.links_get_flow (tab n rho) (tab n v) lam = tab n (fun i => rho i * v i * lam).
Proof. unfold Np.links_get_flow. autorewrite with tab. reflexivity. Qed.

Lemma np_step_density_tab n rho q qu lam L T :
  Np.links_step_density (tab n rho) (tab n q) (tab n qu) lam L T =
  tab n (fun i => rho i + T / lam / L * (qu i - q i)).
Proof. unfold Np.links_step_density. autorewrite with tab. reflexivity. Qed.

Lemma np_Veq_map {A} {NA : Num A} (rho : list A) vf rc a :
  Np.links_Veq rho vf rc a = map (fun r => Np.links_Veq_s r vf rc a) rho.
Proof. unfold Np.links_Veq, sv, vs. rewrite !map_map. reflexivity. Qed.
Lemma np_Veq_tab {A} {NA : Num A} n (rho : nat -> A) vf rc a :
  Np.links_Veq (tab n rho) vf rc a = tab n (fun i => Np.links_Veq_s (rho i) vf rc a).
Proof. rewrite np_Veq_map. apply map_tab. Qed.

Lemma np_Veq_s_eq rho vf rc a :
  Np.links_Veq_s rho vf rc a = vf * exp (- (1 / a) * Rpow (rho / rc) a).
Proof.
  unfold Np.links_Veq_s. numR. rewrite Q2R_m1. replace (-1 / a) with (- (1 / a)) by (unfold Rdiv; ring). reflexivity.
Qed.

Section Scatter.
Context {A : Type} {NA : Num A}.

Lemma index_of_None i l : index_of i l = None <-> ~ In i l.
Proof.
  induction l as [|x l IH]; cbn [index_of In]; [tauto|].
  destruct (Nat.eqb_spec x i) as [->|Hne]; [split; [discriminate|tauto]|].
  destruct (index_of i l); cbn [option_map]; [|tauto].
  split; [discriminate|]. intros H. assert (E : Some n = None) by (apply IH; tauto). discriminate E.
Qed.

Lemma index_of_Some_lt i l k : index_of i l = Some k -> (k < length l)%nat /\ nth k l O = i.
Proof.
  revert k; induction l as [|x l IH]; cbn [index_of]; intros k H; [discriminate|].
  destruct (Nat.eqb_spec x i) as [->|Hne]; [injection H as <-; split; [apply Nat.lt_0_succ|reflexivity]|].
  destruct (index_of i l); [|discriminate]. injection H as <-. destruct (IH _ eq_refl).
  split; [apply -> Nat.succ_lt_mono|]; assumption.
Qed.

Lemma nth_scatter idx : forall (vals x : list A) n i d,
  length x = n -> NoDup idx -> Forall (fun j => (j < n)%nat) idx -> length vals = length idx ->
  nth i (scatter idx vals x) d =
  match index_of i idx with Some k => nth k vals d | None => nth i x d end.
Proof.
  induction idx as [|j idx IH]; intros [|y vals] x n i d Hx Hnd Hlt Hlen; try discriminate; [reflexivity|].
  apply NoDup_cons_iff in Hnd as [Hnin Hnd]. apply Forall_cons_iff in Hlt as [Hj Hlt]. injection Hlen as Hlen.
  cbn [scatter index_of]. rewrite (IH _ _ n), nth_set_nth, Hx by (rewrite ?set_nth_length; assumption).
  destruct (Nat.eqb_spec j i) as [<-|_].
  - apply Nat.ltb_lt in Hj. apply index_of_None in Hnin. rewrite Hnin, Hj. reflexivity.
  - destruct (index_of i idx); reflexivity.
Qed.

(* x[idx] = op(x[idx], w) on a tabulated vector: entry i changes iff i is listed, with the partner
   of its position in the list *)
Lemma scatter_gather_tab op idx (w : list A) n f :
  NoDup idx -> Forall (fun j => (j < n)%nat) idx -> length w = length idx ->
  scatter idx (vv op (gather idx (tab n f)) w) (tab n f) =
  tab n (fun i => match index_of i idx with Some k => op (f i) (nth k w zero) | None => f i end).
Proof.
  intros Hnd Hlt Hlen. apply (eq_tab _ _ _ zero); [rewrite scatter_length; apply tab_length|].
  intros i Hi. rewrite (nth_scatter _ _ _ n) by (rewrite ?tab_length, ?vv_length, ?gather_length; auto; lia).
  destruct (index_of i idx) as [k|] eqn:E; [|apply nth_tab; exact Hi].
  destruct (index_of_Some_lt _ _ _ E) as [Hk Hik].
  rewrite nth_vv, nth_gather, Hik, nth_tab by (rewrite ?gather_length; lia). reflexivity.
Qed.
End Scatter.

Lemma np_cVeq_tab n rho (vc : list R) vsl (al vf rc a : R) :
  NoDup vsl -> Forall (fun j => (j < n)%nat) vsl -> length vc = length vsl ->
  Np.links_controlled_Veq (tab n rho) vc vsl al vf rc a =
  tab n (fun i => match index_of i vsl with
                  | Some k => Rmin (Np.links_Veq_s (rho i) vf rc a) ((1 + al) * nth k vc 0)
                  | None => Np.links_Veq_s (rho i) vf rc a
                  end).
Proof.
  intros Hnd Hlt Hlen. unfold Np.links_controlled_Veq. cbv zeta.
  rewrite np_Veq_tab, scatter_gather_tab by (rewrite ?sv_length; assumption).
  apply tab_ext. intros i _. destruct (index_of i vsl) as [k|] eqn:E; [|reflexivity].
  destruct (index_of_Some_lt _ _ _ E) as [Hk _].
  rewrite nth_sv, zeroR by lia. numR. rewrite Q2R_1. reflexivity.
Qed.

(* step_speed, for every numeric structure: a base update of every segment; minus a merging term on the
   first segment when q_ramp and delta are given; minus a lane-drop term on the last one when lanes_drop, phi
   and rho_crit are given *)
Section SpeedStages.
Context {A : Type} {NA : Num A}.
Definition speed_base (v vu rho rd Veq : list A) (L tau eta kappa T : A) : list A :=
  vv sub (vv add (vv add v (sv mul (div T tau) (vv sub Veq v)))
                 (vv mul (vs div (sv mul T v) L) (vv sub vu v)))
         (vv div (sv mul (div (mul eta T) tau) (vv sub rd rho)) (sv mul L (vs add rho kappa))).
Definition merge_term (lanes L kappa T v rho q_ramp delta : A) : A :=
  div (mul (mul (mul delta T) q_ramp) v) (mul (mul L lanes) (add rho kappa)).
Definition drop_term (lanes L T v rho lanes_drop phi rho_crit : A) : A :=
  div (mul (mul (mul (mul phi T) lanes_drop) rho) (sq v)) (mul (mul L lanes) rho_crit).
Definition speed_merge (v rho : list A) (lanes L kappa T : A) (q_ramp delta : option A) (vn : list A) : list A :=
  match q_ramp, delta with
  | Some q, Some d => upd_first (fun x => sub x (merge_term lanes L kappa T (vfirst v) (vfirst rho) q d)) vn
  | _, _ => vn
  end.
Definition speed_drop (v rho : list A) (lanes L T : A) (lanes_drop phi rho_crit : option A) (vn : list A) : list A :=
  match lanes_drop, phi, rho_crit with
  | Some ld, Some ph, Some rc => upd_last (fun x => sub x (drop_term lanes L T (vlast v) (vlast rho) ld ph rc)) vn
  | _, _, _ => vn
  end.
Lemma np_step_speed_stages v vu rho rd Veq lanes L tau eta kappa T qr de ld ph rc :
  Np.links_step_speed v vu rho rd Veq lanes L tau eta kappa T qr de ld ph rc =
  speed_drop v rho lanes L T ld ph rc
    (speed_merge v rho lanes L kappa T qr de (speed_base v vu rho rd Veq L tau eta kappa T)).
Proof. destruct qr, de, ld, ph, rc; reflexivity. Qed. (* by cases: the order of the `is not None` tests does not matter *)
End SpeedStages.

(* over the reals: the scalar law of one segment, and the two optional terms (zero when absent) *)
Definition ss_base (L tau eta kappa T v vu r rd V : R) : R :=
  v + T / tau * (V - v) + T * v / L * (vu - v) - eta * T / tau * (rd - r) / (L * (r + kappa)).
Definition ss_merge (lanes L kappa T v r : R) (qr de : option R) : R :=
  match qr, de with Some qr, Some de => merge_term lanes L kappa T v r qr de | _, _ => 0 end.
Definition ss_drop (lanes L T v r : R) (ld ph rc : option R) : R :=
  match ld, ph, rc with Some ld, Some ph, Some rc => drop_term lanes L T v r ld ph rc | _, _, _ => 0 end.

Lemma speed_base_tab n v vu r rd V (L tau eta kappa T : R) :
  speed_base (tab n v) (tab n vu) (tab n r) (tab n rd) (tab n V) L tau eta kappa T =
  tab n (fun i => ss_base L tau eta kappa T (v i) (vu i) (r i) (rd i) (V i)).
Proof. unfold speed_base. autorewrite with tab. reflexivity. Qed.

Lemma tab_sub_0 n (b : nat -> R) (c : nat -> bool) : tab n (fun i => b i - (if c i then 0 else 0)) = tab n b.
Proof. apply tab_ext. intros i _. destruct (c i); apply Rminus_0_r. Qed.

Lemma speed_merge_tab n v r b (lanes L kappa T : R) qr de :
  (1 <= n)%nat ->
  speed_merge (tab n v) (tab n r) lanes L kappa T qr de (tab n b) =
  tab n (fun i => b i - (if Nat.eqb i 0 then ss_merge lanes L kappa T (v i) (r i) qr de else 0)).
Proof.
  intros Hn. unfold speed_merge, ss_merge. rewrite !vfirst_tab by exact Hn.
  destruct qr as [q|]; [destruct de as [d|]|]; rewrite ?tab_sub_0; try reflexivity.
  rewrite upd_first_tab. apply tab_ext. intros i _.
  destruct (Nat.eqb_spec i 0) as [->|_]; [reflexivity|symmetry; apply Rminus_0_r].
Qed.
Lemma speed_drop_tab n v r b (lanes L T : R) ld ph rc :
  (1 <= n)%nat ->
  speed_drop (tab n v) (tab n r) lanes L T ld ph rc (tab n b) =
  tab n (fun i => b i - (if Nat.eqb i (n - 1) then ss_drop lanes L T (v i) (r i) ld ph rc else 0)).
Proof.
  intros Hn. unfold speed_drop, ss_drop. rewrite !vlast_tab by exact Hn.
  destruct ld as [ld|]; [destruct ph as [ph|]; [destruct rc as [rc|]|]|]; rewrite ?tab_sub_0; try reflexivity.
  rewrite upd_last_tab. apply tab_ext. intros i _.
  destruct (Nat.eqb_spec i (n - 1)) as [->|_]; [reflexivity|symmetry; apply Rminus_0_r].
Qed.

Lemma np_step_speed_tab n v vu r rd V (lanes L tau eta kappa T : R) qr de ld ph rc :
  (1 <= n)%nat ->
  Np.links_step_speed (tab n v) (tab n vu) (tab n r) (tab n rd) (tab n V)
    lanes L tau eta kappa T qr de ld ph rc =
  tab n (fun i => ss_base L tau eta kappa T (v i) (vu i) (r i) (rd i) (V i)
                  - (if Nat.eqb i 0 then ss_merge lanes L kappa T (v i) (r i) qr de else 0)
                  - (if Nat.eqb i (n - 1) then ss_drop lanes L T (v i) (r i) ld ph rc else 0)).
Proof.
  intros Hn. rewrite np_step_speed_stages, speed_base_tab, speed_merge_tab, speed_drop_tab by exact Hn. reflexivity.
Qed.

Lemma np_step_speed_tab_mono n v vu r rd V V' (lanes L tau eta kappa T : R) qr de ld ph rc i :
  0 <= T / tau -> (i < n)%nat -> V' i <= V i ->
  nth i (Np.links_step_speed (tab n v) (tab n vu) (tab n r) (tab n rd) (tab n V')
           lanes L tau eta kappa T qr de ld ph rc) 0 <=
  nth i (Np.links_step_speed (tab n v) (tab n vu) (tab n r) (tab n rd) (tab n V)
           lanes L tau eta kappa T qr de ld ph rc) 0.
Proof.
  intros HT Hi HV. rewrite !np_step_speed_tab, !nth_tab by lia. unfold ss_base.
  assert (T / tau * (V' i - v i) <= T / tau * (V i - v i)) by (apply Rmult_le_compat_l; lra). lra.
Qed.

(* the shifted copies Link.step_dynamics stacks (links.py:202-209): x[:-1] behind the upstream value, x[1:] before
   the downstream one; a one-segment link has nothing to stack *)
Lemma np_shift_up_tab (x0 : R) n f : (1 <= n)%nat ->
  (if (1 <? n)%nat then Np.engine_vcat [[x0]; vinit (tab n f)] else [x0]) =
  tab n (fun i => if Nat.eqb i 0 then x0 else f (i - 1)%nat).
Proof.
  intros Hn. rewrite <- (cons_vinit_tab x0 n f Hn). destruct n as [|[|n]]; [lia|reflexivity|].
  unfold Np.engine_vcat. cbn [Nat.ltb Nat.leb concat app]. rewrite app_nil_r. reflexivity.
Qed.
Lemma np_shift_down_tab (xN : R) n f : (1 <= n)%nat ->
  (if (1 <? n)%nat then Np.engine_vcat [vtail (tab n f); [xN]] else [xN]) =
  tab n (fun i => if Nat.eqb i (n - 1) then xN else f (i + 1)%nat).
Proof.
  intros Hn. rewrite <- (vtail_snoc_tab xN n f Hn). destruct n as [|[|n]]; [lia|reflexivity|].
  unfold Np.engine_vcat. cbn [Nat.ltb Nat.leb concat]. rewrite app_nil_r. reflexivity.
Qed.

Lemma np_up_flow_eq (qs : list R) (b : R) (bs : list R) (qo : option R) :
  Np.nodes_get_upstream_flow qs b bs qo =
  b / Rsum bs * (Rsum qs + match qo with Some q => q | None => 0 end).
Proof.
  unfold Np.nodes_get_upstream_flow. cbv zeta. rewrite !vsum_Rsum. numR.
  destruct qo; [reflexivity|]. rewrite Rplus_0_r. reflexivity.
Qed.
Lemma np_up_speed_eq (qs vs : list R) :
  Np.nodes_get_upstream_speed qs vs = Rsum (vv Rmult vs qs) / Rsum qs.
Proof. unfold Np.nodes_get_upstream_speed. rewrite !vsum_Rsum. reflexivity. Qed.
Lemma np_down_dens_eq (rs : list R) :
  Np.nodes_get_downstream_density rs = Rsum (map (fun x => x * x) rs) / Rsum rs.
Proof. unfold Np.nodes_get_downstream_density. rewrite !vsum_Rsum. reflexivity. Qed.

Lemma Rpow_1 a : Rpow 1 a = 1.
Proof.
  unfold Rpow. destruct (Req_EM_T 1 0) as [H|H]; [lra|].
  unfold Rpower. rewrite ln_1, Rmult_0_r. apply exp_0.
Qed.

Lemma np_ramp_eq d w C r rmax r1 rc T ty :
  Np.origins_get_ramp_flow d w C r rmax r1 rc T ty =
  if String.eqb ty "in" then Rmin (d + w / T) (C * Rmin r ((rmax - r1) / (rmax - rc)))
  else r * Rmin (d + w / T) (C * Rmin 1 ((rmax - r1) / (rmax - rc))).
Proof. unfold Np.origins_get_ramp_flow. cbv zeta. numR. rewrite Q2R_1. reflexivity. Qed.

Lemma np_simp_eq qdes d w C rmax r1 rc T ty :
  Np.origins_get_simplifiedramp_flow qdes d w C rmax r1 rc T ty =
  if String.eqb ty "unlimited" then qdes
  else Rmin qdes (Rmin (d + w / T) (C * Rmin 1 ((rmax - r1) / (rmax - rc)))).
Proof. unfold Np.origins_get_simplifiedramp_flow. cbv zeta. numR. rewrite Q2R_1. reflexivity. Qed.

(* the mainstream law, with V(rho_crit) = v_free exp(-1/a) the critical speed it compares with *)
Lemma np_main_eq d w vctrl v1 rc a vf lanes T :
  Np.origins_get_mainstream_flow d w vctrl v1 rc a vf lanes T =
  Rmin (d + w / T)
    (if Rlt_dec (Rmin vctrl v1) (Np.links_Veq_s rc vf rc a)
     then lanes * Rmin vctrl v1 * rc *
          Rpow (- a * ln (Rmax (/ 20) (Rmin 1 (Rmin vctrl v1 / vf)))) (1 / a)
     else lanes * Np.links_Veq_s rc vf rc a * rc).
Proof.
  unfold Np.origins_get_mainstream_flow. cbv zeta. numR. rewrite Q2R_1, Q2R_1_20. reflexivity.
Qed.
Lemma np_Vcrit rc vf a : rc <> 0 -> Np.links_Veq_s rc vf rc a = vf * exp (- (1 / a)).
Proof.
  intros Hrc. rewrite np_Veq_s_eq. unfold Rdiv at 2. rewrite (Rinv_r rc Hrc), Rpow_1, Rmult_1_r. reflexivity.
Qed.

(* the guard of the mainstream law (S1 of Spec.v): the speed ratio is clipped into [1/20, 1], so that the logarithm is defined and
   - a ln ratio is a non-negative base for the power *)
Lemma ratio_guard x : 0 < Rmax (/ 20) (Rmin 1 x) <= 1.
Proof. split; [eapply Rlt_le_trans; [|apply Rmax_l]; lra|apply Rmax_lub; [lra|apply Rmin_l]]. Qed.
Lemma neg_log_nonneg a x : 0 < a -> 0 < x <= 1 -> 0 <= - a * ln x.
Proof.
  intros Ha [H0 H1]. assert (ln x <= 0).
  { destruct H1 as [H1| ->]; [left; rewrite <- ln_1; apply ln_increasing; assumption|rewrite ln_1; apply Rle_refl]. }
  rewrite <- Ropp_mult_distr_l, Ropp_mult_distr_r. apply Rmult_le_pos; lra.
Qed.
