(* LiftPrims.v — every primitive of the NumPy-derived engine, run on finite numbers injected into the partial
   reals, is defined and equals the injection of its value over the reals, on its admissible domain (exact zeros
   included): first the link laws that C15 names (flow, density, equilibrium speed, speed update; their
   CasADi-derived twins are proved under the end results, props/C15.v: the same terms, but for the speed update),
   then the rest of the engine record.  Lifted.v composes them through the element layer.
   Every proof has one shape: the total operations of NumPR compute on values (Some _), so a primitive's proof
   states what keeps its divisions, logarithms and powers in their domain, rewrites those from the inside out
   (pr_div_ok, pr_log_ok, pr_pow_ok, computing in between), rewrites the vector combinators, and computes. *)
From Coq Require Import Reals Lra String.
From SM Require Import Num NumR NumPR.
From SM.gen Require Import EnginesNp.
From SM.specs Require Import C15fin_spec.
From SM.proofs Require Import VecR PrimR.
From Coq Require Import List.
Import ListNotations.
Local Open Scope R_scope.

(* the operations of the partial reals as pr1, pr2, pr_div, pr_log, pr_pow; the total ones compute on values *)
Ltac numPR := cbn [ofQ add sub mul div neg sq nexp nlog npow nmin nmax NumPR pr1 pr2].

Lemma pr_div_ok x y : y <> 0 -> pr_div (Some x) (Some y) = Some (x / y).
Proof. intros H. unfold pr_div. destruct (Req_EM_T y 0); [contradiction|reflexivity]. Qed.
Lemma pr_log_ok x : 0 < x -> pr_log (Some x) = Some (ln x).
Proof. intros H. unfold pr_log. destruct (Rlt_dec 0 x); [reflexivity|contradiction]. Qed.
Lemma pr_pow_ok x y : 0 <= x -> 0 < y -> pr_pow (Some x) (Some y) = Some (Rpow x y).
Proof.
  intros Hx Hy. unfold pr_pow, Rpow. destruct (Rlt_dec 0 x) as [H|H].
  - destruct (Req_EM_T x 0); [lra|reflexivity].
  - destruct (Req_EM_T x 0); [|lra]. destruct (Rlt_dec 0 y); [reflexivity|contradiction].
Qed.

Lemma somes_length l : List.length (somes l) = List.length l.
Proof. apply map_length. Qed.
Lemma somes_inj a b : somes a = somes b -> a = b.
Proof.
  unfold somes. revert b. induction a as [|x a IH]; intros [|y b] H; simpl in H; try discriminate; [reflexivity|].
  inversion H. f_equal. apply IH. assumption.
Qed.
Lemma nth_somes i l : nth i (somes l) (@zero PR NumPR) = Some (nth i l (@zero R NumR)).
Proof. exact (map_nth Some l _ i). Qed.
Lemma vfirst_somes l : vfirst (somes l) = Some (vfirst l).
Proof. apply nth_somes. Qed.
Lemma vlast_somes l : vlast (somes l) = Some (vlast l).
Proof. rewrite !vlast_nth, somes_length. apply nth_somes. Qed.

Lemma vinit_somes l : vinit (somes l) = somes (vinit l).
Proof.
  unfold vinit, somes. induction l as [|a l IH]; [reflexivity|]. destruct l as [|b l]; [reflexivity|].
  cbn [map removelast] in *. rewrite IH. reflexivity.
Qed.
Lemma vtail_somes l : vtail (somes l) = somes (vtail l).
Proof. destruct l; reflexivity. Qed.

(* a combinator commutes with the injection where the function it applies does *)
Lemma vv_somes (f : PR -> PR -> PR) f' a b :
  Forall (fun y => forall x, f (Some x) (Some y) = Some (f' x y)) b -> vv f (somes a) (somes b) = somes (vv f' a b).
Proof.
  unfold vv, somes. intros H. revert a. induction H as [|y b Hy _ IH]; intros [|x a]; cbn [map combine fst snd];
    try reflexivity. rewrite Hy, IH. reflexivity.
Qed.
Lemma map_somes (f : PR -> PR) f' a :
  Forall (fun x => f (Some x) = Some (f' x)) a -> map f (somes a) = somes (map f' a).
Proof. intros H. unfold somes. rewrite !map_map. apply map_ext_Forall, H. Qed.
Lemma vv_pr2 f a b : vv (pr2 f) (somes a) (somes b) = somes (vv f a b).
Proof. apply vv_somes, Forall_forall. reflexivity. Qed.
Lemma sv_pr2 f s b : sv (pr2 f) (Some s) (somes b) = somes (sv f s b).
Proof. apply map_somes, Forall_forall. reflexivity. Qed.
Lemma vs_pr2 f a s : vs (pr2 f) (somes a) (Some s) = somes (vs f a s).
Proof. apply map_somes, Forall_forall. reflexivity. Qed.
Lemma map_pr1 f a : map (pr1 f) (somes a) = somes (map f a).
Proof. apply map_somes, Forall_forall. reflexivity. Qed.
Lemma vs_div a s : s <> 0 -> vs pr_div (somes a) (Some s) = somes (vs Rdiv a s).
Proof. intros H. apply map_somes, Forall_forall. intros x _. apply pr_div_ok, H. Qed.
Lemma vv_div a b : Forall (fun y => y <> 0) b -> vv pr_div (somes a) (somes b) = somes (vv Rdiv a b).
Proof. intros H. apply vv_somes. revert H. apply Forall_impl. intros y Hy x. apply pr_div_ok, Hy. Qed.
Lemma upd_first_somes (f : PR -> PR) (f' : R -> R) l :
  (forall x, f (Some x) = Some (f' x)) -> upd_first f (somes l) = somes (upd_first f' l).
Proof. intros H. destruct l as [|a l]; [reflexivity|]. unfold somes. simpl. rewrite H. reflexivity. Qed.
Lemma upd_last_somes (f : PR -> PR) (f' : R -> R) l :
  (forall x, f (Some x) = Some (f' x)) -> upd_last f (somes l) = somes (upd_last f' l).
Proof.
  intros H. destruct l as [|a l _] using rev_ind; [reflexivity|]. unfold somes.
  rewrite upd_last_snoc, !map_app. cbn [map]. rewrite upd_last_snoc, H. reflexivity.
Qed.
Lemma vsum_somes l : @vsum PR NumPR (somes l) = Some (@vsum R NumR l).
Proof.
  destruct l as [|x l]; [reflexivity|]. unfold vsum. cbn [somes map]. revert x.
  induction l as [|y l IH]; intros x; [reflexivity|apply IH].
Qed.

Lemma gather_somes idx l : gather idx (somes l) = somes (gather idx l).
Proof. unfold gather, somes. rewrite map_map. apply map_ext. intros i. apply nth_somes. Qed.
Lemma set_nth_somes i y l : set_nth i (Some y) (somes l) = somes (set_nth i y l).
Proof.
  unfold somes. revert l. induction i as [|i IH]; intros [|x l]; simpl; try reflexivity. rewrite IH. reflexivity.
Qed.
Lemma scatter_somes idx vals l : scatter idx (somes vals) (somes l) = somes (scatter idx vals l).
Proof.
  revert vals l. induction idx as [|i idx IH]; intros [|y vals] l; try reflexivity.
  cbn [scatter somes map]. rewrite set_nth_somes. apply IH.
Qed.

Theorem np_flow_finite : flow_finite (@Np.links_get_flow PR NumPR) (@Np.links_get_flow R NumR).
Proof. intros rho v lam. unfold Np.links_get_flow. numPR. rewrite vv_pr2, vs_pr2. reflexivity. Qed.

Theorem np_density_finite : density_finite (@Np.links_step_density PR NumPR) (@Np.links_step_density R NumR).
Proof.
  intros rho q qu lam L T Hl HL. unfold Np.links_step_density. numPR.
  rewrite (pr_div_ok T), pr_div_ok, vv_pr2, sv_pr2, vv_pr2 by assumption. reflexivity.
Qed.

(* the equilibrium speed of one density; links_Veq is that law on every entry (PrimR.np_Veq_map) *)
Lemma np_Veq_s_lift rho vf rc a : 0 <= rho -> 0 < rc -> 0 < a ->
  @Np.links_Veq_s PR NumPR (Some rho) (Some vf) (Some rc) (Some a) = Some (@Np.links_Veq_s R NumR rho vf rc a).
Proof.
  intros Hr Hrc Ha. pose proof (Rle_mult_inv_pos rho rc Hr Hrc : 0 <= rho / rc).
  unfold Np.links_Veq_s. numPR. rewrite !pr_div_ok, pr_pow_ok by (assumption || lra). reflexivity.
Qed.

Theorem np_Veq_finite : Veq_finite (@Np.links_Veq PR NumPR) (@Np.links_Veq R NumR).
Proof.
  intros rho vf rc a Hr Hrc Ha. rewrite !np_Veq_map. apply map_somes. revert Hr. apply Forall_impl. intros x Hx.
  apply np_Veq_s_lift; assumption.
Qed.

(* the speed update, stage by stage (PrimR.np_step_speed_stages) *)
Lemma speed_base_lift v vu r rd V L tau eta kappa T :
  Forall (fun x => 0 <= x) r -> 0 < kappa -> 0 < L -> 0 < tau ->
  speed_base (somes v) (somes vu) (somes r) (somes rd) (somes V) (Some L) (Some tau) (Some eta) (Some kappa) (Some T) =
  somes (speed_base v vu r rd V L tau eta kappa T).
Proof.
  intros Hr Hk HL Htau.
  assert (Forall (fun y => y <> 0) (sv Rmult L (vs Rplus r kappa))).
  { unfold sv, vs. rewrite map_map. apply Forall_map. revert Hr. apply Forall_impl. intros x Hx.
    apply Rgt_not_eq, Rmult_gt_0_compat; lra. }
  unfold speed_base. numPR.
  rewrite !pr_div_ok, !vv_pr2, !sv_pr2, vs_div, vs_pr2, sv_pr2, !vv_pr2, vv_div, !vv_pr2 by (assumption || lra).
  reflexivity.
Qed.

Lemma speed_merge_lift v r lanes L kappa T qr de vn :
  L * lanes * (vfirst r + kappa) <> 0 ->
  speed_merge (somes v) (somes r) (Some lanes) (Some L) (Some kappa) (Some T) (option_map Some qr) (option_map Some de)
    (somes vn) = somes (speed_merge v r lanes L kappa T qr de vn).
Proof.
  intros H. destruct qr as [q|], de as [d|]; try reflexivity. apply upd_first_somes. intros x.
  rewrite !vfirst_somes. unfold merge_term. numPR. rewrite pr_div_ok by assumption. reflexivity.
Qed.

Lemma speed_drop_lift v r lanes L T ld ph rc vn :
  (forall c, rc = Some c -> L * lanes * c <> 0) ->
  speed_drop (somes v) (somes r) (Some lanes) (Some L) (Some T) (option_map Some ld) (option_map Some ph)
    (option_map Some rc) (somes vn) = somes (speed_drop v r lanes L T ld ph rc vn).
Proof.
  intros H. destruct ld as [l|], ph as [p|], rc as [c|]; try reflexivity. apply upd_last_somes. intros x.
  rewrite !vlast_somes. unfold drop_term. numPR. rewrite pr_div_ok by exact (H c eq_refl). reflexivity.
Qed.

Theorem np_speed_finite : speed_finite (@Np.links_step_speed PR NumPR) (@Np.links_step_speed R NumR).
Proof.
  intros v vu r rd V lanes L tau eta kappa T qr de ld ph rc Hr Hk HL Hlan Htau Hrc _ _.
  rewrite !np_step_speed_stages, speed_base_lift by assumption.
  rewrite speed_merge_lift, speed_drop_lift; [reflexivity| |].
  - intros c Hc. apply Rgt_not_eq, Rmult_gt_0_compat; [apply Rmult_gt_0_compat; lra|exact (Hrc c Hc)].
  - assert (0 <= vfirst r).
    { unfold vfirst. destruct Hr; cbn [nth]; [rewrite zeroR; lra|assumption]. }
    apply Rgt_not_eq, Rmult_gt_0_compat; [apply Rmult_gt_0_compat; lra|lra].
Qed.

Lemma np_up_flow_lift q b bs qo :
  @vsum R NumR bs <> 0 ->
  @Np.nodes_get_upstream_flow PR NumPR (somes q) (Some b) (somes bs) (option_map Some qo) =
  Some (@Np.nodes_get_upstream_flow R NumR q b bs qo).
Proof.
  intros H. unfold Np.nodes_get_upstream_flow. cbv zeta. numPR. rewrite !vsum_somes, pr_div_ok by assumption.
  destruct qo as [x|]; reflexivity.
Qed.
Lemma np_up_speed_lift q v :
  @vsum R NumR q <> 0 ->
  @Np.nodes_get_upstream_speed PR NumPR (somes q) (somes v) = Some (@Np.nodes_get_upstream_speed R NumR q v).
Proof. intros H. unfold Np.nodes_get_upstream_speed. numPR. rewrite vv_pr2, !vsum_somes. apply pr_div_ok, H. Qed.
Lemma np_down_dens_lift r :
  @vsum R NumR r <> 0 ->
  @Np.nodes_get_downstream_density PR NumPR (somes r) = Some (@Np.nodes_get_downstream_density R NumR r).
Proof. intros H. unfold Np.nodes_get_downstream_density. numPR. rewrite map_pr1, !vsum_somes. apply pr_div_ok, H. Qed.

Lemma np_dfree_lift r rc :
  @Np.destinations_get_congestion_free_downstream_density PR NumPR (Some r) (Some rc) =
  Some (@Np.destinations_get_congestion_free_downstream_density R NumR r rc).
Proof. reflexivity. Qed.
Lemma np_dcong_lift r d rc :
  @Np.destinations_get_congested_downstream_density PR NumPR (Some r) (Some d) (Some rc) =
  Some (@Np.destinations_get_congested_downstream_density R NumR r d rc).
Proof. reflexivity. Qed.
Lemma np_step_queue_lift w d q T :
  @Np.origins_step_queue PR NumPR (Some w) (Some d) (Some q) (Some T) = Some (@Np.origins_step_queue R NumR w d q T).
Proof. reflexivity. Qed.
Lemma np_max_lift a l : @Np.engine_max PR NumPR (Some a) (somes l) = somes (@Np.engine_max R NumR a l).
Proof. unfold Np.engine_max. numPR. apply sv_pr2. Qed.
Lemma np_max_s_lift a b : @Np.engine_max_s PR NumPR (Some a) (Some b) = Some (@Np.engine_max_s R NumR a b).
Proof. reflexivity. Qed.
Lemma np_vcat_lift (ls : list (list R)) : @Np.engine_vcat PR (map somes ls) = somes (@Np.engine_vcat R ls).
Proof. unfold Np.engine_vcat, somes. rewrite concat_map. reflexivity. Qed.

Lemma np_cVeq_lift rho vc vsl al vf rc a :
  Forall (fun x => 0 <= x) rho -> 0 < rc -> 0 < a ->
  @Np.links_controlled_Veq PR NumPR (somes rho) (somes vc) vsl (Some al) (Some vf) (Some rc) (Some a) =
  somes (@Np.links_controlled_Veq R NumR rho vc vsl al vf rc a).
Proof.
  intros Hr Hrc Ha. unfold Np.links_controlled_Veq. cbv zeta.
  rewrite (np_Veq_finite rho vf rc a Hr Hrc Ha), gather_somes. numPR. rewrite sv_pr2, vv_pr2. apply scatter_somes.
Qed.

(* the guard of the mainstream law keeps the speed ratio in (0,1] whatever the speeds (zero, even negative): its
   logarithm is defined and not positive, so the base of the power is not negative *)
Lemma np_main_lift d w vctrl v1 rc a vf lanes T :
  0 < T -> 0 < rc -> 0 < a -> 0 < vf ->
  @Np.origins_get_mainstream_flow PR NumPR (Some d) (Some w) (Some vctrl) (Some v1) (Some rc) (Some a) (Some vf)
     (Some lanes) (Some T) =
  Some (@Np.origins_get_mainstream_flow R NumR d w vctrl v1 rc a vf lanes T).
Proof.
  intros HT Hrc Ha Hvf.
  unfold Np.origins_get_mainstream_flow. cbv zeta. rewrite np_Veq_s_lift by lra. numPR. numR. rewrite Q2R_1, Q2R_1_20.
  pose proof (ratio_guard (Rmin vctrl v1 / vf)) as Hg. pose proof (neg_log_nonneg a _ Ha Hg).
  pose proof (Rdiv_lt_0_compat 1 a Rlt_0_1 Ha).
  rewrite !pr_div_ok by lra. cbn [pr2]. rewrite pr_log_ok by lra. cbn [pr1 pr2]. rewrite pr_pow_ok by assumption.
  cbn [iflt NumPR NumR pr_iflt]. destruct (Rlt_dec _ _); reflexivity.
Qed.

Lemma np_ramp_lift d w C r rmax r1 rc T ty :
  0 < T -> rc < rmax ->
  @Np.origins_get_ramp_flow PR NumPR (Some d) (Some w) (Some C) (Some r) (Some rmax) (Some r1) (Some rc) (Some T) ty =
  Some (@Np.origins_get_ramp_flow R NumR d w C r rmax r1 rc T ty).
Proof.
  intros HT Hrc. unfold Np.origins_get_ramp_flow. cbv zeta. numPR. numR.
  rewrite !pr_div_ok by lra. destruct (String.eqb ty "in"); reflexivity.
Qed.

Lemma np_simp_lift q d w C rmax r1 rc T ty :
  0 < T -> rc < rmax ->
  @Np.origins_get_simplifiedramp_flow PR NumPR (Some q) (Some d) (Some w) (Some C) (Some rmax) (Some r1) (Some rc)
     (Some T) ty =
  Some (@Np.origins_get_simplifiedramp_flow R NumR q d w C rmax r1 rc T ty).
Proof.
  intros HT Hrc. unfold Np.origins_get_simplifiedramp_flow. cbv zeta. numPR. numR.
  destruct (String.eqb ty "unlimited"); [reflexivity|]. rewrite !pr_div_ok by lra. reflexivity.
Qed.
