(* Homomorphism.v — the element-layer model run on expression trees denotes the model run on
   reals: a free theorem.  Paramcoq generates the abstraction theorem network_step_R for the
   polymorphic model (its proof term is checked by the kernel like any other); instantiating the
   relation with  (fun e r => eval env e = r)  gives eval_step. *)
From Coq Require Import Reals List.
From Param Require Import Param.
From SM Require Import NumR Engine Expr ExprEval Types Blocks.
Import ListNotations.

Parametricity Recursive np_engine qualified.
Parametricity Recursive cs_engine qualified.
Parametricity Recursive network_step qualified.

(* relations on closed data are equality *)
Lemma nat_R_eq a b : Coq_o_Init_o_Datatypes_o_nat_R a b -> a = b.
Proof. induction 1; congruence. Qed.
Lemma nat_R_refl a : Coq_o_Init_o_Datatypes_o_nat_R a a.
Proof. induction a; constructor; assumption. Qed.
Lemma bool_R_refl b : Coq_o_Init_o_Datatypes_o_bool_R b b.
Proof. destruct b; constructor. Qed.
Lemma positive_R_eq a b : Coq_o_Numbers_o_BinNums_o_positive_R a b -> a = b.
Proof. induction 1; congruence. Qed.
Lemma positive_R_refl a : Coq_o_Numbers_o_BinNums_o_positive_R a a.
Proof. induction a; constructor; assumption. Qed.
Lemma Z_R_eq a b : Coq_o_Numbers_o_BinNums_o_Z_R a b -> a = b.
Proof. destruct 1; try reflexivity; f_equal; apply positive_R_eq; assumption. Qed.
Lemma Z_R_refl a : Coq_o_Numbers_o_BinNums_o_Z_R a a.
Proof. destruct a; constructor; apply positive_R_refl. Qed.
Lemma Q_R_eq a b : Coq_o_QArith_o_QArith_base_o_Q_R a b -> a = b.
Proof. destruct 1. f_equal; [apply Z_R_eq|apply positive_R_eq]; assumption. Qed.
Lemma Q_R_refl a : Coq_o_QArith_o_QArith_base_o_Q_R a a.
Proof. destruct a. constructor; [apply Z_R_refl|apply positive_R_refl]. Qed.

Notation list_R := Coq_o_Init_o_Datatypes_o_list_R.
Notation option_R := Coq_o_Init_o_Datatypes_o_option_R.

Lemma list_R_refl {T} (TR : T -> T -> Type) (H : forall x, TR x x) l : list_R T T TR l l.
Proof. induction l; constructor; auto. Qed.
Lemma option_R_refl {T} (TR : T -> T -> Type) (H : forall x, TR x x) o : option_R T T TR o o.
Proof. destruct o; constructor; auto. Qed.
Lemma list_R_map {T A1 A2} (AR : A1 -> A2 -> Type) (f : T -> A1) (h : T -> A2) l :
  (forall x, AR (f x) (h x)) -> list_R A1 A2 AR (map f l) (map h l).
Proof. intros H. induction l; simpl; constructor; auto. Qed.

(* reading a relation off the lists it relates: the second list is the image of the first, the members of the first
   have a property, the second is a given function of the first *)
Lemma list_R_map_r {A B} (AR : A -> B -> Type) (h : A -> B) l :
  (forall a, In a l -> AR a (h a)) -> list_R A B AR l (map h l).
Proof. intros H. induction l; simpl; constructor; [apply H; left; reflexivity|apply IHl; intros; apply H; right; assumption]. Qed.
Lemma list_R_Forall {A B} (AR : A -> B -> Type) (Q : A -> Prop) l u :
  (forall a b, AR a b -> Q a) -> list_R A B AR l u -> Forall Q l.
Proof. intros H. induction 1; constructor; eauto. Qed.
Lemma list_R_map_eq {A B} (AR : A -> B -> Type) (h : A -> B) l u :
  (forall a b, AR a b -> h a = b) -> list_R A B AR l u -> map h l = u.
Proof. intros H. induction 1; simpl; [reflexivity|]. f_equal; auto. Qed.

Lemma linkinfo_R_refl x : SM_o_Types_o_linkinfo_R x x.
Proof.
  destruct x. constructor; [apply nat_R_refl|apply Q_R_refl|].
  apply option_R_refl. intros l. apply list_R_refl. apply nat_R_refl.
Qed.
Lemma okind_R_refl x : SM_o_Types_o_okind_R x x.
Proof. destruct x; constructor; apply bool_R_refl. Qed.
Lemma dkind_R_refl x : SM_o_Types_o_dkind_R x x.
Proof. destruct x; constructor. Qed.
Lemma universe_R_refl U : SM_o_Types_o_universe_R U U.
Proof.
  destruct U. constructor; intros a b H; apply nat_R_eq in H; subst.
  - apply linkinfo_R_refl.
  - apply okind_R_refl.
  - apply dkind_R_refl.
Qed.
Lemma graph_R_refl g : SM_o_Graph_o_graph_R g g.
Proof.
  destruct g. constructor; apply list_R_refl.
  - intros [n o d]. constructor; [apply nat_R_refl| |]; apply option_R_refl; apply nat_R_refl.
  - intros [u d l]. constructor; apply nat_R_refl.
Qed.
Lemma options_R_refl o : SM_o_Types_o_options_R o o.
Proof. destruct o. constructor; apply bool_R_refl. Qed.
Lemma lpar_R_eq a b : SM_o_Expr_o_lpar_R a b -> a = b.
Proof. destruct 1; reflexivity. Qed.

(* the relation "the tree denotes the real" *)
Section Eval.
Variable env : ident -> R.
Definition rho (e : expr) (r : R) : Prop := eval env e = r.

Lemma Num_rho : SM_o_Num_o_Num_R expr R rho NumExpr NumR.
Proof.
  unfold NumExpr, NumR, rho. constructor; simpl; intros; subst; try reflexivity.
  match goal with H : Coq_o_QArith_o_QArith_base_o_Q_R _ _ |- _ => apply Q_R_eq in H; subst end.
  reflexivity.
Qed.

Definition np_engine_rho := SM_o_Engine_o_np_engine_R expr R rho NumExpr NumR Num_rho.
Definition cs_engine_rho := SM_o_Engine_o_cs_engine_R expr R rho NumExpr NumR Num_rho.

Definition eval_out (o : step_out (A:=expr)) : step_out (A:=R) :=
  {| o_links := map (fun x => (fst x, (map (eval env) (fst (snd x)), map (eval env) (snd (snd x)))))
                    (o_links o);
     o_queues := map (fun x => (fst x, option_map (eval env) (snd x))) (o_queues o) |}.
Definition eval_res (r : res (step_out (A:=expr))) : res (step_out (A:=R)) :=
  match r with Ok o => Ok (eval_out o) | Err e => Err e end.

Lemma list_rho_map l1 l2 : list_R expr R rho l1 l2 -> map (eval env) l1 = l2.
Proof. apply list_R_map_eq. intros a b H. exact H. Qed.

Lemma res_rho r1 r2 :
  SM_o_Blocks_o_res_R step_out step_out (SM_o_Blocks_o_step_out_R expr R rho) r1 r2 ->
  eval_res r1 = r2.
Proof.
  destruct 1 as [o1 o2 [l1 l2 Hl q1 q2 Hq]|e1 e2 He]; [|destruct He; reflexivity].
  cbn [eval_res eval_out o_links o_queues]. apply f_equal, f_equal2.
  - revert Hl. apply list_R_map_eq. intros x1 x2 [n1 n2 Hn p1 p2 [a1 a2 Ha b1 b2 Hb]]. cbn [fst snd].
    rewrite (nat_R_eq _ _ Hn), (list_rho_map _ _ Ha), (list_rho_map _ _ Hb). reflexivity.
  - revert Hq. apply list_R_map_eq. intros x1 x2 [n1 n2 Hn p1 p2 Hp]. cbn [fst snd].
    rewrite (nat_R_eq _ _ Hn). destruct Hp as [a1 a2 <-|]; reflexivity.
Qed.

Theorem eval_step (E1 : engine expr) (E2 : engine R) :
  SM_o_Engine_o_engine_R expr R rho E1 E2 ->
  forall U (P1 : params expr) (P2 : params R) g opts (st1 : state expr) (st2 : state R),
    SM_o_Types_o_params_R expr R rho P1 P2 ->
    SM_o_Types_o_state_R expr R rho st1 st2 ->
    eval_res (network_step E1 U P1 g opts st1) = network_step E2 U P2 g opts st2.
Proof.
  intros HE U P1 P2 g opts st1 st2 HP Hst. apply res_rho.
  apply (SM_o_Blocks_o_network_step_R expr R rho NumExpr NumR Num_rho E1 E2 HE U U (universe_R_refl U)
           P1 P2 HP g g (graph_R_refl g) opts opts (options_R_refl opts) st1 st2 Hst).
Qed.
End Eval.
