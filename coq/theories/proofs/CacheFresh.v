(* CacheFresh.v — C08.  Each look-up is computed from one listing of the graph (recompute_dep), and a primitive call
   leaves alone the listings behind every look-up that C08_spec.affects says it does not affect (affects_sound_prim).
   The invariant inv_state (a populated key holds a graph on which its look-up has the value it has on the current
   one) is kept by decorated calls under any invalidation table that passes table_ok, and by reads. *)
From Coq Require Import List.
From SM Require Import Construct Cache.
From SM.specs Require Import C09_spec C08_spec.
From SM.proofs Require Import ListFacts Construction.
Import ListNotations.

(* the (origin, node) or (destination, node) pairs in node order, for p = c_orig or c_dest *)
Definition attr_list (p : cnode -> option nat) (g : cgraph) : list (nat * obj) :=
  flat_map (fun c => match p c with Some o => [(o, c_obj c)] | None => [] end) (c_nodes g).

Lemma recompute_dep nm key g g' :
  match key with
  | KNodesByName => c_nodes g = c_nodes g'
  | KLinksByName | KNodesByLink => clinks g = clinks g'
  | KOrigins | KOriginsByName | KOriginsByNode => attr_list c_orig g = attr_list c_orig g'
  | KDests | KDestsByName | KDestsByNode => attr_list c_dest g = attr_list c_dest g'
  end -> recompute nm key g = recompute nm key g'.
Proof.
  destruct key; simpl; unfold origins_d, dests_d, attr_list; intros H; rewrite H; reflexivity.
Qed.

Lemma no_out_edges g x : cwf g -> ~ a_node g x -> filter (fun e => obj_eqb (c_up e) x) (c_edges g) = [].
Proof.
  intros (_ & _ & H3) Hn. induction (c_edges g) as [|e l IH]; simpl; [reflexivity|].
  destruct (obj_eqb (c_up e) x) eqn:E.
  - apply obj_eqb_eq in E. exfalso. apply Hn. rewrite <- E. apply (H3 e). left. reflexivity.
  - apply IH. intros e' He'. apply H3. right. exact He'.
Qed.

(* a node put lists the same links: a new node has none, since the ends of every edge are nodes already (cwf) *)
Lemma clinks_put f x g : (forall c, c_obj (f c) = c_obj c) -> cwf g -> clinks (put_node f x g) = clinks g.
Proof.
  intros Hf W. unfold clinks. rewrite put_node_edges, put_node_nodes. apply flat_map_kput; [intros c|intros M]; rewrite Hf; [reflexivity|].
  apply (no_out_edges g x W). intros Hx. apply has_node_In in Hx. unfold has_node in Hx. unfold kmem in M. congruence.
Qed.
Lemma attr_list_put p f x g : (forall c, c_obj (f c) = c_obj c) -> (forall c, p (f c) = p c) -> p (blank x) = None ->
  attr_list p (put_node f x g) = attr_list p g.
Proof.
  intros Hf Hp Hb. unfold attr_list. rewrite put_node_nodes. apply flat_map_kput; intros; rewrite Hp; [rewrite Hf; reflexivity|].
  rewrite Hb. reflexivity.
Qed.
Lemma attr_list_add_link p g u l d : (forall x, p (blank x) = None) -> attr_list p (add_link g u l d) = attr_list p g.
Proof.
  intros Hb. unfold attr_list at 1. rewrite add_link_nodes. fold (attr_list p (add_node (add_node g u) d)).
  rewrite !add_node_put, !attr_list_put; auto.
Qed.

(* which look-ups a node put leaves alone: none that list the nodes, all that list the links, and those of an attribute f keeps *)
Lemma recompute_put nm key f x g : (forall c, c_obj (f c) = c_obj c) -> cwf g ->
  match key with
  | KNodesByName => False
  | KLinksByName | KNodesByLink => True
  | KOrigins | KOriginsByName | KOriginsByNode => forall c, c_orig (f c) = c_orig c
  | KDests | KDestsByName | KDestsByNode => forall c, c_dest (f c) = c_dest c
  end -> recompute nm key (put_node f x g) = recompute nm key g.
Proof.
  intros Hf W Hk. apply recompute_dep.
  destruct key; [destruct Hk|apply clinks_put; assumption|apply clinks_put; assumption|apply attr_list_put; auto..].
Qed.

Lemma affects_sound_prim nm g p key :
  cwf g -> affects (kind_of_prim p) key = false ->
  recompute nm key (apply_prim g p) = recompute nm key g.
Proof.
  intros W Ha. destruct p; simpl apply_prim.
  - rewrite add_node_put. apply recompute_put; [reflexivity|exact W|]. destruct key; try discriminate Ha; simpl; auto.
  - apply recompute_dep. destruct key; try discriminate Ha; apply attr_list_add_link; reflexivity.
  - rewrite add_origin_put. apply recompute_put; [reflexivity|exact W|]. destruct key; try discriminate Ha; simpl; auto.
  - rewrite add_destination_put. apply recompute_put; [reflexivity|exact W|]. destruct key; try discriminate Ha; simpl; auto.
Qed.

Definition inv_state (s : cstate) : Prop :=
  cwf (fst s) /\ forall key g0, snd s key = Some g0 -> forall nm, recompute nm key g0 = recompute nm key (fst s).

(* a decorated call: some keys are dropped and the graph changes in a way that no other key can see *)
Lemma inv_drop s g' ks : inv_state s -> cwf g' ->
  (forall key, existsb (ckey_eqb key) ks = false -> forall nm, recompute nm key g' = recompute nm key (fst s)) ->
  inv_state (g', cache_drop ks (snd s)).
Proof.
  intros [_ F] W' H. split; [exact W'|]. intros key g0 Hc nm. unfold snd, cache_drop in Hc.
  destruct (existsb (ckey_eqb key) ks) eqn:E; [discriminate|]. rewrite (F key g0 Hc nm). symmetry. apply H, E.
Qed.

Lemma ckey_eqb_true a b : ckey_eqb a b = true -> a = b.
Proof. destruct a, b; try reflexivity; intros H; discriminate H. Qed.

(* a read: empty keys are filled from a graph that gives them the value the current one would *)
Lemma inv_fill s ks src : inv_state s ->
  (forall key, In key ks -> forall nm, recompute nm key src = recompute nm key (fst s)) ->
  inv_state (fst s, cache_fill ks src (snd s)).
Proof.
  intros [W F] H. split; [exact W|]. intros key g0 Hc. cbn [fst snd] in *. unfold cache_fill in Hc. destruct (snd s key) eqn:E.
  - inversion Hc; subst. apply (F key g0 E).
  - destruct (existsb (ckey_eqb key) ks) eqn:Ek; inversion Hc; subst. apply H.
    apply existsb_exists in Ek. destruct Ek as (k' & Hk' & Ek). apply ckey_eqb_true in Ek. subst. exact Hk'.
Qed.

Lemma reads_through_sound nm k k' r g0 g : reads_through k = k' :: r ->
  recompute nm k' g0 = recompute nm k' g -> recompute nm k g0 = recompute nm k g.
Proof. destruct k; try discriminate; intros [= <- _] [= H]; simpl; rewrite H; reflexivity. Qed.

Lemma table_ok_use tbl k key :
  table_ok tbl = true -> existsb (ckey_eqb key) (tbl k) = false -> affects k key = false.
Proof.
  intros H He. unfold table_ok in H. rewrite forallb_forall in H.
  (* the depths: all_kinds lists 6 kinds, all_keys 9 keys *)
  assert (Hk : In k all_kinds) by (destruct k; simpl; auto 7). specialize (H k Hk). rewrite forallb_forall in H.
  assert (Hkey : In key all_keys) by (destruct key; simpl; auto 10).
  specialize (H key Hkey). rewrite He in H. destruct (affects k key); [discriminate|reflexivity].
Qed.

Section Inv.
Variable tbl : pkind -> list ckey.
Hypothesis TOK : table_ok tbl = true.

(* a decorated call: primitive calls of one kind (one, or the bulk calls' several) under that kind's invalidation *)
Lemma inv_call {B} s (f : cgraph -> B -> cgraph) (pr : B -> prim) l k :
  (forall a b, f a b = apply_prim a (pr b)) -> (forall b key, In b l -> affects (kind_of_prim (pr b)) key = affects k key) ->
  inv_state s -> inv_state (fold_left f l (fst s), cache_drop (tbl k) (snd s)).
Proof.
  intros Hf Hk S.
  destruct (fold_left_inv (fun a => cwf a /\ forall nm key, affects k key = false ->
                                      recompute nm key a = recompute nm key (fst s)) f l) with (a := fst s) as [W K].
  - intros a b Hb [Wa Ra]. rewrite Hf. split; [apply cwf_prim, Wa|]. intros nm key Ha. rewrite <- (Ra nm key Ha).
    apply affects_sound_prim; [exact Wa|]. rewrite Hk; assumption.
  - split; [apply S|reflexivity].
  - apply inv_drop; [exact S|exact W|]. intros key E nm. apply K. exact (table_ok_use tbl k key TOK E).
Qed.

Lemma inv_step_prim s p : inv_state s -> inv_state (step_prim tbl s p).
Proof. apply (inv_call s apply_prim (fun p => p) [p]); [reflexivity|]. intros b key [<-|[]]. reflexivity. Qed.

Lemma inv_step s op : inv_state s -> inv_state (hstep tbl s op).
Proof.
  intros S. destruct op as [p|xs|ls|path o d|k]; simpl.
  - apply inv_step_prim, S.
  - apply (inv_call s add_node PAddNode xs KAddNodes); [reflexivity|reflexivity|exact S].
  - apply (inv_call s _ (fun t => PAddLink (fst (fst t)) (snd (fst t)) (snd t)) ls KAddLinks); [reflexivity|reflexivity|exact S].
  - apply (fold_left_inv inv_state); [|exact S]. intros a p _. apply inv_step_prim.
  - pose proof (inv_fill s (reads_through k) (fst s) S (fun _ _ _ => eq_refl)) as S1.
    apply (inv_fill (fst s, _) [k]); [exact S1|]. intros key [<-|[]] nm.
    (* a derived look-up is computed from the snapshot of the look-up it reads, which may be older *)
    destruct (reads_through k) as [|k' r] eqn:R; [reflexivity|].
    destruct (cache_fill _ _ _ k') as [gs|] eqn:Ec; [|reflexivity].
    apply (reads_through_sound nm k k' r _ _ R), (proj2 S1 k' gs Ec).
Qed.

Theorem never_stale_inv h : inv_state (hrun tbl h).
Proof.
  apply (fold_left_inv inv_state); [intros s op _; apply inv_step|]. split; [apply cinv_empty|]. intros key g0 Hc. discriminate.
Qed.
End Inv.

Theorem never_stale_proof : never_stale.
Proof.
  intros tbl TOK h nm key. destruct (never_stale_inv tbl TOK h) as [W F]. unfold lookup.
  destruct (snd (hrun tbl h) key) as [g0|] eqn:E; [apply (F key g0 E)|reflexivity].
Qed.
