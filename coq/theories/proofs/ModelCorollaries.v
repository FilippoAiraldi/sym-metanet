(* ModelCorollaries.v — what follows from the specification's algebra together with validity, and its transfer
   to the model.
   C14 on the specification: SpecPerm's theorems, their structural hypotheses discharged by validity.
   C02 on the specification: inside a link the density updates telescope to the inflow minus the last-segment flow; over
   the network the sums over edges are taken node by node (VecR.reindex), where a node either passes on what enters it
   (node balance) or, having no leaving link, lets it leave the network.
   C02, C10, C14 on the element-layer model: an engine with C01's theorem (step_is_METANET) returns the
   specification's values, so two runs agree wherever the specification does (link_results_agree). *)
From Coq Require Import Reals Permutation Lia Lra.
From SM Require Import Graph Engine Expr Types Spec.
From SM.specs Require Import GraphWF C01_spec C02_spec C10_spec C14_spec.
From SM.proofs Require Import VecR GraphFacts ValidSpecProof SpecPerm.
From Coq Require Import List.
Import ListNotations.
Local Open Scope R_scope.

Theorem order_invariant_proof : order_invariant.
Proof.
  intros U P g g' st WFG V [PN PE] e i.
  pose proof (validb_vfacts U g WFG V) as VF.
  apply spec_perm; try assumption. intros n o Ho. exact (vf_orig_out _ _ VF _ _ Ho).
Qed.

Theorem scaling_invariant_proof : scaling_invariant.
Proof.
  intros U P g st c WFG V Hc Hs e i He.
  pose proof (validb_vfacts U g WFG V) as VF.
  apply spec_scaled; try assumption. exact (vf_link _ _ VF).
Qed.

Theorem share_is_turnrate_proof : share_is_turnrate.
Proof. intros U P g st e. split; [reflexivity|]. intros i. reflexivity. Qed.

Theorem node_balance_any U (P : params R) g (st : state R) n :
  ssum (sturn P) (out_links g n) <> 0 -> node_balance U P g st n.
Proof.
  intros HS. unfold node_balance.
  rewrite (Rsum_map_ext (sinflow U P g st)
             (fun e => / ssum (sturn P) (out_links g n) * snode_Q U P g st n * sturn P e)).
  2:{ intros e He. apply In_out_links in He. destruct He as [_ Hu]. unfold sinflow. rewrite Hu.
      numR. unfold Rdiv. ring. }
  rewrite Rsum_map_scal. unfold snode_Q. rewrite !ssum_Rsum in *. numR.
  field. exact HS.
Qed.

Section Cons.
Variable U : universe.
Variable P : params R.
Variable g : graph.
Variable st : state R.
Hypothesis WFG : wf_graph g.
(* of validity only: a destination node has no leaving link, and a link ends in a destination or at a node
   with leaving links *)
Hypothesis DEST : forall n d, dest_at g n = Some d -> out_links g n = [].
Hypothesis SINK : forall e, In e (g_edges g) -> dest_at g (e_down e) = None -> out_links g (e_down e) <> [].
Hypothesis HLL : forall e, In e (g_edges g) -> lp P (e_link e) PL * slam U (e_link e) <> 0.
Hypothesis HS : forall e, In e (g_edges g) -> ssum (sturn P) (out_links g (e_up e)) <> 0.
Hypothesis HN : forall e, In e (g_edges g) -> (1 <= sN U (e_link e))%nat.

Theorem node_balance_proof n : out_links g n <> [] -> node_balance U P g st n.
Proof.
  intros Hne. apply node_balance_any. destruct (out_links g n) as [|e0 l0] eqn:E; [congruence|].
  assert (He0 : In e0 (out_links g n)) by (rewrite E; left; reflexivity).
  apply In_out_links in He0. destruct He0 as [He0 <-]. rewrite <- E. apply HS, He0.
Qed.

Lemma telescope (f : nat -> R) (a : R) N :
  Rsum (map (fun i => (if Nat.eqb i 0 then a else f (i - 1)%nat) - f i) (seq 0 (S N))) = a - f N.
Proof.
  induction N as [|N IH].
  - unfold Rsum. cbn. lra.
  - rewrite seq_S, map_app, Rsum_app, IH. cbn [map plus]. unfold Rsum. cbn [fold_right].
    replace (Nat.eqb (S N) 0) with false by reflexivity.
    replace (S N - 1)%nat with N by lia. lra.
Qed.

Lemma link_delta e : In e (g_edges g) ->
  link_vehicles_delta U P g st e = gT P * (sinflow U P g st e - slast_q U st e).
Proof.
  intros He. unfold link_vehicles_delta, slast_q, slastseg.
  pose proof (HN _ He) as H1. destruct (sN U (e_link e)) as [|N] eqn:EN; [lia|].
  rewrite (Rsum_map_ext _ (fun i => gT P * ((if Nat.eqb i 0 then sinflow U P g st e
                                             else sflow U st (e_link e) (i - 1)) - sflow U st (e_link e) i))).
  - rewrite Rsum_map_scal, telescope. replace (S N - 1)%nat with N by lia. reflexivity.
  - intros i _. unfold spec_rho_next, sq_up. numR.
    pose proof (HLL _ He) as Hll. field. split; intros Hz; apply Hll; rewrite Hz; ring.
Qed.

Lemma snode_origin_flow_split n :
  snode_origin_flow U P g st n =
  at_origin g n (fun o m => if is_queued (okind_of U o) then sorigin_flow U P st o m else 0)
  + ideal_inflow U P g st n.
Proof.
  unfold snode_origin_flow, ideal_inflow, at_origin.
  destruct (origin_at g n); [|rewrite zeroR; lra]. destruct (out_links g n); [rewrite zeroR; lra|].
  destruct (is_queued _); lra.
Qed.

Lemma queue_delta_eq n :
  queue_delta U P g st n =
  gT P * (demand U g st n
          - at_origin g n (fun o m => if is_queued (okind_of U o) then sorigin_flow U P st o m else 0)).
Proof.
  unfold queue_delta, demand, at_origin.
  destruct (origin_at g n); [|lra]. destruct (out_links g n); [lra|].
  destruct (is_queued _); [|lra]. unfold spec_w_next.
  numR. ring.
Qed.

Lemma by_upstream (f : edge -> R) :
  Rsum (map f (g_edges g)) = Rsum (map (fun n => Rsum (map f (out_links g n))) (map nid (g_nodes g))).
Proof. apply reindex; [apply WFG|]. intros e He. apply WFG, He. Qed.
Lemma by_downstream (f : edge -> R) :
  Rsum (map f (g_edges g)) = Rsum (map (fun n => Rsum (map f (in_links g n))) (map nid (g_nodes g))).
Proof. apply reindex; [apply WFG|]. intros e He. apply WFG, He. Qed.

(* a link's last-segment flow leaves the network iff no link leaves its downstream node *)
Lemma exit_flow_in n e : In e (in_links g n) ->
  exit_flow U g st e = match out_links g n with [] => slast_q U st e | _ => 0 end.
Proof.
  intros He. apply In_in_links in He. destruct He as [He <-]. unfold exit_flow.
  destruct (dest_at g (e_down e)) as [d|] eqn:Hd.
  - rewrite (DEST _ _ Hd). reflexivity.
  - pose proof (SINK e He Hd). destruct (out_links g (e_down e)); [contradiction|reflexivity].
Qed.

(* at every node: with no leaving link what enters leaves the network, otherwise the node balance *)
Lemma node_account n :
  Rsum (map (sinflow U P g st) (out_links g n)) - Rsum (map (slast_q U st) (in_links g n)) =
  snode_origin_flow U P g st n - Rsum (map (exit_flow U g st) (in_links g n)).
Proof.
  destruct (out_links g n) as [|e0 l0] eqn:E.
  - rewrite (Rsum_map_ext (exit_flow U g st) (slast_q U st)) by (intros e He; rewrite (exit_flow_in n e He), E; reflexivity).
    unfold snode_origin_flow. rewrite E. destruct (origin_at g n); rewrite zeroR; reflexivity.
  - rewrite (Rsum_map_ext (exit_flow U g st) (fun _ => 0)) by (intros e He; rewrite (exit_flow_in n e He), E; reflexivity).
    rewrite Rsum_map_zero, <- E, (node_balance_proof n) by (rewrite E; discriminate). lra.
Qed.

Theorem network_balance_proof : network_balance U P g st.
Proof.
  unfold network_balance. cbv zeta.
  rewrite (Rsum_map_ext (link_vehicles_delta U P g st) _ _ link_delta), Rsum_map_scal, Rsum_map_minus.
  rewrite (by_upstream (sinflow U P g st)), (by_downstream (slast_q U st)), (by_downstream (exit_flow U g st)).
  rewrite (Rsum_map_ext (queue_delta U P g st) _ _ (fun n _ => queue_delta_eq n)), Rsum_map_scal, Rsum_map_minus.
  pose proof (Rsum_map_ext _ _ (map nid (g_nodes g)) (fun n _ => node_account n)) as H1.
  pose proof (Rsum_map_ext _ _ (map nid (g_nodes g)) (fun n _ => snode_origin_flow_split n)) as H2.
  rewrite !Rsum_map_minus in H1. rewrite Rsum_map_plus in H2. rewrite H1, H2. ring.
Qed.
End Cons.

Theorem conservation_proof : conservation.
Proof.
  intros U P g st WFG V HLL HS HN. pose proof (validb_vfacts U g WFG V) as VF. split.
  - intros n Hn. apply node_balance_proof; assumption.
  - apply network_balance_proof; try assumption; [apply (vf_dest_out _ _ VF)|apply (vf_sink _ _ VF)].
Qed.

(* two results that meet C01's clause for the same link agree wherever the values prescribed for them do *)
Lemma link_results_agree {U P P' g g' st st' e r r'} i :
  link_result_ok U P g st e r -> link_result_ok U P' g' st' e r' -> (i < lN (linkd U (e_link e)))%nat ->
  (spec_rho_next U P g st e i = spec_rho_next U P' g' st' e i -> nth i (fst (snd r)) 0 = nth i (fst (snd r')) 0) /\
  (spec_v_next U P g st e i = spec_v_next U P' g' st' e i -> nth i (snd (snd r)) 0 = nth i (snd (snd r')) 0).
Proof.
  intros (_ & _ & _ & H) (_ & _ & _ & H') Hi. destruct (H i Hi) as [-> ->], (H' i Hi) as [-> ->]. auto.
Qed.

Theorem model_order_invariant_proof E : model_order_invariant E.
Proof.
  intros U P g g' st out out' WFG V SN _ _ F F' e r r' Hr Hr' i Hi.
  destruct (link_results_agree i (Forall2_combine_In F Hr) (Forall2_combine_In F' Hr') Hi) as [A B].
  destruct (order_invariant_proof U P g g' st WFG V SN e i) as [C1 C2]. split; [apply A, C1|apply B, C2].
Qed.

Theorem model_scaling_invariant_proof E : step_is_METANET E -> model_scaling_invariant E.
Proof.
  intros HE U P g st c WFG V WL HT HR Hc Hs.
  destruct (HE U P g st WFG V WL HT HR) as (out & S & FL & _).
  assert (HT' : forall e, In e (g_edges g) -> lp (scale_turn P c g) (e_link e) Pturn <> 0).
  { intros e He. unfold scale_turn. cbn [lp]. destruct (nodes_of_link g (e_link e)) as [[u d]|].
    - apply Rmult_integral_contrapositive_currified; [apply Hc|apply HT; exact He].
    - apply HT; exact He. }
  (* scale_turn changes Pturn only: HR speaks of the scaled parameters as it stands *)
  destruct (HE U (scale_turn P c g) g st WFG V WL HT' HR) as (out' & S' & FL' & _).
  exists out, out'. split; [exact S|]. split; [exact S'|].
  apply (Forall2_join _ FL FL'). intros e a b He Ha Hb.
  split; [rewrite (proj1 Ha), (proj1 Hb); reflexivity|]. intros i Hi. rewrite (proj1 Ha) in Hi.
  destruct (link_results_agree i Ha Hb Hi) as [A B].
  destruct (scaling_invariant_proof U P g st c WFG V Hc Hs e i (links_edges _ _ He)) as [C1 C2].
  split; [apply A|apply B]; symmetry; assumption.
Qed.

Theorem model_order_invariant_valid_proof E : step_is_METANET E -> model_order_invariant_valid E.
Proof.
  intros HE U P g g' st WFG WFG' V V' SN WL HT HR.
  assert (IN : forall e, In e (g_edges g') -> In e (g_edges g)) by (intros e; apply Permutation_in, Permutation_sym, SN).
  destruct (HE U P g st WFG V WL HT HR) as (out & S & FL & _).
  destruct (HE U P g' st WFG' V' (fun e He => WL e (IN e He)) (fun e He => HT e (IN e He))
               (fun e He => HR e (IN e He))) as (out' & S' & FL' & _).
  exists out, out'. split; [exact S|]. split; [exact S'|].
  exact (model_order_invariant_proof E U P g g' st out out' WFG V SN S S' FL FL').
Qed.

Theorem model_conserves_proof E : step_is_METANET E -> model_conserves E.
Proof.
  intros HE U P g st WFG V WL HT HR HL HS.
  destruct (HE U P g st WFG V WL HT HR) as (out & S & FL & FQ).
  assert (HN : forall e, In e (g_edges g) -> (1 <= sN U (e_link e))%nat).
  { intros e He. destruct (WL e He) as (H & _). exact H. }
  destruct (conservation_proof U P g st WFG V HL HS HN) as [NB NW].
  exists out. repeat split; assumption.
Qed.

Theorem model_locality_proof E : step_is_METANET E -> model_locality E.
Proof.
  intros HE U P g st st' WFG V WL WL' HT HR.
  destruct (HE U P g st WFG V WL HT HR) as (out & S & FL & _).
  destruct (HE U P g st' WFG V WL' HT HR) as (out' & S' & FL' & _).
  exists out, out'. split; [exact S|]. split; [exact S'|].
  intros e r r' Hr Hr' i Hi.
  destruct (link_results_agree i (Forall2_combine_In FL Hr) (Forall2_combine_In FL' Hr') Hi) as [A B].
  destruct (locality_proof U P g st st') as (L1 & L2 & _). split; intros Hnb; [apply A, L1|apply B, L2]; exact Hnb.
Qed.
