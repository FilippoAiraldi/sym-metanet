(* ConstructGenTie.v — Construct.apply_op = the regenerated construction calls (gen/ConstructGen.v). *)
From Coq Require Import List.
From SM Require Import Construct NxSupport.
From SM.gen Require Import ConstructGen.
From SM.specs Require Import ConstructGen_spec.
From SM.proofs Require Import ListFacts Construction.
Import ListNotations.

Lemma nx_add_node_plain g x : nx_add_node g x [] = add_node g x.
Proof. symmetry. apply add_node_put. Qed.

Lemma nx_add_edge_is_add_link g u v l : nx_add_edge g u v l = add_link g u l v.
Proof. unfold nx_add_edge, add_link. rewrite !nx_add_node_plain. reflexivity. Qed.

Lemma gen_add_node_eq g x : gen_add_node g x = add_node g x.
Proof. unfold gen_add_node, gen_add_node_full; cbn. apply nx_add_node_plain. Qed.
Lemma gen_add_link_eq g u l d : gen_add_link g u l d = add_link g u l d.
Proof. unfold gen_add_link, gen_add_link_full; cbn. apply nx_add_edge_is_add_link. Qed.
Lemma gen_add_origin_full_eq g o x : gen_add_origin_full g o x = (add_origin g o x, None).
Proof. unfold gen_add_origin_full, add_origin, nx_add_node, nx_set_node_attr. destruct (has_node g x); reflexivity. Qed.
Lemma gen_add_destination_full_eq g d x : gen_add_destination_full g d x = (add_destination g d x, None).
Proof. unfold gen_add_destination_full, add_destination, nx_add_node, nx_set_node_attr. destruct (has_node g x); reflexivity. Qed.
Lemma gen_add_origin_eq g o x : gen_add_origin g o x = add_origin g o x.
Proof. exact (f_equal fst (gen_add_origin_full_eq g o x)). Qed.
Lemma gen_add_destination_eq g d x : gen_add_destination g d x = add_destination g d x.
Proof. exact (f_equal fst (gen_add_destination_full_eq g d x)). Qed.

Definition okcur (cur : list obj) : bool := match cur with [_] | [_; _] => true | _ => false end.
Definition st_t := (cgraph * list obj * bool * option obj * option cerr)%type.
(* of the loop state, what path_loop computes: graph, error, last point *)
Definition obs (st : st_t) : cgraph * option cerr * option obj := let '(g, _, _, p, e) := st in (g, e, p).
(* longer_than_one is set exactly when point_last is *)
Definition flagged (st : st_t) : Prop := let '(_, _, lto, p, _) := st in lto = negb (is_none p).

Lemma body_one a p g lto pl :
  gen_add_path_body (g, [a], lto, pl, None) p =
  if is_link p then (g, [a; p], true, Some p, None) else (g, [a; p], true, Some p, Some CTypeErr).
Proof. unfold gen_add_path_body. cbn. case (is_link p); reflexivity. Qed.
Lemma body_two a l p g lto pl :
  gen_add_path_body (g, [a; l], lto, pl, None) p =
  if is_node p then (add_link (add_node g p) a l p, [p], true, Some p, None)
  else (g, [a; l; p], true, Some p, Some CTypeErr).
Proof.
  unfold gen_add_path_body. cbn -[gen_add_node gen_add_link]. case (is_node p); cbn -[gen_add_node gen_add_link]; [|reflexivity].
  rewrite gen_add_node_eq, gen_add_link_eq. reflexivity.
Qed.

Lemma loop_spec rest : forall cur g lto pl, okcur cur = true ->
  obs (fold_left gen_add_path_body rest (g, cur, lto, pl, None)) =
  let '(ps, e, lst) := path_loop cur rest pl in (fold_left apply_prim ps g, e, lst).
Proof.
  induction rest as [|p rest IH]; intros cur g lto pl Hc; [reflexivity|].
  destruct cur as [|a [|l [|z cur]]]; try discriminate Hc; cbn [fold_left path_loop].
  - rewrite body_one. destruct (is_link p); [apply IH; reflexivity|rewrite fold_left_fixed; reflexivity].
  - rewrite body_two. destruct (is_node p); [|rewrite fold_left_fixed; reflexivity].
    rewrite IH by reflexivity. destruct (path_loop [p] rest (Some p)) as [[ps e] lst]. reflexivity.
Qed.

Lemma loop_flagged rest st : flagged st -> flagged (fold_left gen_add_path_body rest st).
Proof.
  apply fold_left_inv. intros [[[[g c] l] pl] [e|]] p _ H; [exact H|]. unfold gen_add_path_body.
  (* by cases on how many items current_link holds, before the append and after it (the text may take the length on
     either side; the starred call of add_link asks for three), and on the kind of p *)
  destruct c as [|a1 [|a2 [|a3 c]]]; cbn [app List.length Nat.eqb]; try destruct (c ++ [p]);
    destruct (is_link p), (is_node p); reflexivity.
Qed.

Lemma path_loop_err rest : forall cur last, snd (fst (path_loop cur rest last)) <> Some CUnbound.
Proof.
  induction rest as [|p r IH]; intros cur last; [discriminate|]. destruct cur as [|a [|l [|]]]; try discriminate.
  - cbn [path_loop]. destruct (is_link p); [apply IH|discriminate].
  - rewrite path_loop_two. destruct (is_node p); [apply IH|discriminate].
Qed.

(* what gen_add_path_full does after its loop (the text stands there twice, with and without an origin), from the
   graph g0 that the primitives pre have built *)
Lemma add_path_tail pre g g0 first rest d : g0 = fold_left apply_prim pre g ->
  (let '(g, current_link, longer_than_one, point_last, err) :=
     fold_left gen_add_path_body rest (g0, [first], false, None, None) in
   match err with
   | Some e => (g, Some e)
   | None =>
     if negb longer_than_one then (g, Some CValueErr)
     else match point_last with
          | Some last_node =>
            if negb (is_node last_node) then (g, Some CTypeErr)
            else match d with
                 | Some d' => let g := gen_add_destination g d' last_node in (g, None)
                 | None => (g, None)
                 end
          | None => (g, Some CUnbound)
          end
   end)
  = let '(ps, e) :=
        match path_loop [first] rest None with
        | (ps, Some e, _) => (pre ++ ps, Some e)
        | (ps, None, None) => (pre ++ ps, Some CValueErr)
        | (ps, None, Some lastp) =>
          if negb (is_node lastp) then (pre ++ ps, Some CTypeErr)
          else (pre ++ ps ++ match d with Some d => [PAddDestination d lastp] | None => [] end, None)
        end in
    (fold_left apply_prim ps g, e).
Proof.
  intros ->.
  pose proof (loop_spec rest [first] (fold_left apply_prim pre g) false None eq_refl) as H.
  pose proof (loop_flagged rest (fold_left apply_prim pre g, [first], false, None, None) eq_refl) as F.
  destruct (fold_left gen_add_path_body rest _) as [[[[g' c'] l'] p'] e'].
  destruct (path_loop [first] rest None) as [[ps e] lst]. cbn in H, F. injection H as -> -> ->. subst l'.
  rewrite <- fold_left_app.
  destruct e as [e|]; [reflexivity|]. destruct lst as [lastp|]; [|reflexivity].
  destruct (is_node lastp); cbn [negb is_none]; [|reflexivity].
  destruct d as [d'|]; [|rewrite app_nil_r; reflexivity].
  rewrite app_assoc, (fold_left_app _ (pre ++ ps)). cbn. rewrite gen_add_destination_eq. reflexivity.
Qed.

Lemma gen_add_path_eq g p o d : gen_add_path_full g p o d = add_path g p o d.
Proof.
  unfold gen_add_path_full, add_path, expand_path.
  destruct p as [|first rest]; [reflexivity|].
  case (is_node first); cbn [negb]; [|reflexivity].
  destruct o as [o'|]; apply add_path_tail; cbn [fold_left apply_prim]; rewrite gen_add_node_eq, ?gen_add_origin_eq;
    reflexivity.
Qed.

Theorem construction_model_is_the_regenerated_code_proof : construction_model_is_the_regenerated_code.
Proof.
  intros g op. destruct op as [x|xs|u l d|ls|o x|d x|p o d]; cbn [apply_op gen_apply_op].
  - unfold gen_add_node_full; cbn. rewrite nx_add_node_plain; reflexivity.
  - unfold gen_add_nodes_full, nx_add_nodes_from; cbn. f_equal.
    apply fold_left_ext. intros; symmetry; apply nx_add_node_plain.
  - unfold gen_add_link_full; cbn. rewrite nx_add_edge_is_add_link; reflexivity.
  - unfold gen_add_links_full, nx_add_edges_from; cbn. f_equal. rewrite fold_left_map.
    apply fold_left_ext. intros a [[u l] d]. cbn. symmetry; apply nx_add_edge_is_add_link.
  - symmetry; apply gen_add_origin_full_eq.
  - symmetry; apply gen_add_destination_full_eq.
  - symmetry; apply gen_add_path_eq.
Qed.

Theorem regenerated_add_path_never_reads_an_unbound_variable_proof : regenerated_add_path_never_reads_an_unbound_variable.
Proof.
  intros g p o d. rewrite gen_add_path_eq. unfold add_path, expand_path.
  destruct p as [|first rest]; [discriminate|].
  case (is_node first); cbn [negb]; [|discriminate].
  pose proof (path_loop_err rest [first] None) as He.
  destruct (path_loop [first] rest None) as [[ps [e|]] [lastp|]]; try destruct (is_node lastp); cbn; (exact He || discriminate).
Qed.
