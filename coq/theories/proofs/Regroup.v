(* Regroup.v — what the layouts of ToFunction.v have in common: the values of a list of named vectors laid end to
   end (flat), and the two facts about the stable regrouping by name (ToFunction.regroup) that every result about the
   compactness levels uses: it permutes the values, and what it does to names and to any additive measure of the
   values (their images under a map, their sizes) depends on those names and measures alone. *)
From Coq Require Import List String Arith Permutation.
From SM Require Import ToFunction.
From SM.proofs Require Export ListFacts.
Import ListNotations.

Lemma mem_In n l : mem n l = true <-> In n l.
Proof. apply (existsb_eqb _ Nat.eqb_eq). Qed.

Definition flat {K T} (l : list (K * list T)) : list T := List.concat (map snd l).

Lemma flat_app {K T} (a b : list (K * list T)) : flat (a ++ b) = flat a ++ flat b.
Proof. unfold flat. rewrite map_app. apply concat_app. Qed.
Lemma flat_map_values {X K T} (kf : X -> K) (vf : X -> list T) l : flat (map (fun x => (kf x, vf x)) l) = flat_map vf l.
Proof. unfold flat. rewrite map_map. symmetry. apply flat_map_concat_map. Qed.
Lemma flat_rekey {K K' T} (kf : K * list T -> K') l : flat (map (fun x => (kf x, snd x)) l) = flat l.
Proof. unfold flat. rewrite map_map. reflexivity. Qed.
Lemma flat_flat_map {X K T} (h : X -> list (K * list T)) l : flat (flat_map h l) = flat_map (fun x => flat (h x)) l.
Proof. induction l as [|x l IH]; [reflexivity|]. cbn [flat_map]. rewrite flat_app, IH. reflexivity. Qed.
Lemma flat_one {K T} (k : K) (v : list T) : flat [(k, v)] = v.
Proof. apply app_nil_r. Qed.
Lemma flat_singletons {X K T} (kf : X -> K) (vf : X -> T) l : flat (map (fun x => (kf x, [vf x])) l) = map vf l.
Proof. rewrite flat_map_values. apply flat_map_single. Qed.
Lemma In_flat {K T} (l : list (K * list T)) x : In x (flat l) <-> exists kv, In kv l /\ In x (snd kv).
Proof. unfold flat. rewrite <- flat_map_concat_map. apply in_flat_map. Qed.

Lemma param_inputs_flat c ps : flat (param_inputs c ps) = map snd ps.
Proof.
  destruct ps as [|p ps]; [reflexivity|]. unfold param_inputs. destruct c; [apply (flat_singletons fst snd)|apply flat_one].
Qed.

Lemma regroup_add_flat {T} k (v : list T) acc : Permutation (flat (regroup_add k v acc)) (v ++ flat acc).
Proof.
  induction acc as [|[k' v'] acc IH]; cbn [regroup_add].
  - rewrite flat_one, app_nil_r. reflexivity.
  - change (flat ((k', v') :: acc)) with (v' ++ flat acc). destruct (String.eqb k' k).
    + change (Permutation ((v' ++ v) ++ flat acc) (v ++ v' ++ flat acc)).
      rewrite <- app_assoc. apply Permutation_app_swap_app.
    + change (Permutation (v' ++ flat (regroup_add k v acc)) (v ++ v' ++ flat acc)).
      rewrite IH. apply Permutation_app_swap_app.
Qed.
Lemma regroup_flat {T} (l : list (string * list T)) : Permutation (flat (regroup l)) (flat l).
Proof.
  unfold regroup. rewrite <- (app_nil_r (flat l)). change [] with (flat (@nil (string * list T))) at 2.
  generalize (@nil (string * list T)). induction l as [|[k v] l IH]; intros acc; cbn [fold_left fst snd].
  - reflexivity.
  - rewrite IH, regroup_add_flat. change (flat ((k, v) :: l)) with (v ++ flat l).
    rewrite <- app_assoc. apply Permutation_app_swap_app.
Qed.

(* Two lists (of possibly different value types) whose names agree under kf, kf' (which keep distinct names distinct)
   and whose values agree under f, f' (which turn ++ into op) are regrouped alike.  With f a map over the values this
   is naturality of regroup; with f the length, "regrouping only looks at names and sizes". *)
Definition tag {T W} (kf : string -> string) (f : list T -> W) (kv : string * list T) : string * W :=
  (kf (fst kv), f (snd kv)).

Section Respects.
Context {T T' W : Type} (kf kf' : string -> string) (f : list T -> W) (f' : list T' -> W) (op : W -> W -> W).
Hypothesis kf_eqb : forall a b, String.eqb (kf a) (kf b) = String.eqb a b.
Hypothesis kf'_eqb : forall a b, String.eqb (kf' a) (kf' b) = String.eqb a b.
Hypothesis f_app : forall a b, f (a ++ b) = op (f a) (f b).
Hypothesis f'_app : forall a b, f' (a ++ b) = op (f' a) (f' b).

Lemma regroup_add_respects k v k' v' acc acc' :
  kf k = kf' k' -> f v = f' v' -> map (tag kf f) acc = map (tag kf' f') acc' ->
  map (tag kf f) (regroup_add k v acc) = map (tag kf' f') (regroup_add k' v' acc').
Proof.
  intros Hk Hv. revert acc'. induction acc as [|[a x] acc IH]; intros [|[a' x'] acc'] H; try discriminate H.
  - cbn. unfold tag. cbn. rewrite Hk, Hv. reflexivity.
  - injection H as Ha Hx H. cbn [regroup_add].
    (* the two sides meet the key at the same place *)
    rewrite <- (kf_eqb a k), <- (kf'_eqb a' k'), Ha, Hk.
    destruct (String.eqb (kf' a') (kf' k')); cbn [map].
    + unfold tag at 1 3. cbn [fst snd]. rewrite f_app, f'_app, Ha, Hx, Hv, H. reflexivity.
    + unfold tag at 1 3. cbn [fst snd]. rewrite Ha, Hx, (IH acc' H). reflexivity.
Qed.

Lemma regroup_respects l l' :
  map (tag kf f) l = map (tag kf' f') l' -> map (tag kf f) (regroup l) = map (tag kf' f') (regroup l').
Proof.
  unfold regroup. assert (H0 : map (tag kf f) [] = map (tag kf' f') []) by reflexivity. revert H0.
  generalize (@nil (string * list T)) (@nil (string * list T')). revert l'.
  induction l as [|[k v] l IH]; intros [|[k' v'] l'] acc acc' Hacc H; try discriminate H; [exact Hacc|].
  injection H as Hk Hv H. cbn [fold_left fst snd]. apply (IH l' _ _ (regroup_add_respects _ _ _ _ _ _ Hk Hv Hacc) H).
Qed.
End Respects.

Lemma regroup_map {T V} (f : T -> V) (l : list (string * list T)) :
  regroup (map (fun x => (fst x, map f (snd x))) l) = map (fun x => (fst x, map f (snd x))) (regroup l).
Proof.
  (* regroup_respects between l under (id, map f) and its image under (id, id); the image's tagging
     `fun x => (fst x, snd x)` is the identity only up to eta for pairs, hence map_id / map_ext *)
  rewrite <- (map_id (regroup (map _ l))). symmetry.
  rewrite <- (map_ext (fun x => (fst x, snd x)) (fun x => x)) by (intros []; reflexivity).
  apply (regroup_respects (fun k => k) (fun k => k) (map f) (fun v => v) (@app V)); auto using map_app.
  rewrite map_map. reflexivity.
Qed.
