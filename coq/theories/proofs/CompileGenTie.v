(* CompileGenTie.v — the layout functions of ToFunction.v = the regenerated compile helpers (gen/CompileGen.v).
   Each loop shape of the regenerated code has one lemma saying what it computes; each helper then has one equation
   giving its result as a generic layout of CompileGen_spec.v, for all element and value types; to_function composes
   the four; the theorems about the model's own dictionaries are instances. *)
From Coq Require Import List String Lia.
From SM Require Import Num Graph Expr Types Blocks Validity ToFunction PySupport.
From SM.gen Require Import CompileGen.
From SM.specs Require Import CompileGen_spec.
From SM.proofs Require Import Regroup.
Import ListNotations.

Lemma map_pair_id {X Y} (l : list (X * Y)) : map (fun '(x, y) => (x, y)) l = l.
Proof. transitivity (map (fun p => p) l); [apply map_ext; intros []; reflexivity|apply map_id]. Qed.
Lemma combine_fst_snd {X Y} (l : list (X * Y)) : combine (map fst l) (map snd l) = l.
Proof. induction l as [|[x y] l IH]; cbn; [reflexivity|rewrite IH; reflexivity]. Qed.
Lemma len_fst_snd {X Y} (l : list (X * Y)) : List.length (map fst l) = List.length (map snd l).
Proof. rewrite !map_length; reflexivity. Qed.
Lemma combine_app_eq {X Y} (a a' : list X) (b b' : list Y) :
  List.length a = List.length b -> combine (a ++ a') (b ++ b') = combine a b ++ combine a' b'.
Proof.
  revert b; induction a as [|x a IH]; intros [|y b] H; cbn in *; try discriminate; [reflexivity|].
  rewrite IH by (injection H; auto). reflexivity.
Qed.

Section Loops.
Context {V : Type}.

(* a loop that appends names and values item by item *)
Lemma fold_pairs {X} (F : X -> list (string * V)) (body : list string * list V -> X -> list string * list V) :
  (forall n a x, body (n, a) x = (n ++ map fst (F x), a ++ map snd (F x))) ->
  forall l n a, fold_left body l (n, a) = (n ++ map fst (flat_map F l), a ++ map snd (flat_map F l)).
Proof.
  intros H l; induction l as [|x l IH]; intros n a; cbn.
  - rewrite !app_nil_r; reflexivity.
  - rewrite H, IH, !map_app, !app_assoc. reflexivity.
Qed.

(* the regrouping step of the helpers: `if k in D: D[k].append(v) else: D[k] = [v]` *)
Definition radd (D : list (string * list V)) (kv : string * V) : list (string * list V) :=
  if d_mem D (fst kv) then d_set D (fst kv) (d_get D (fst kv) ++ [snd kv]) else d_set D (fst kv) [snd kv].

(* radd walks the dictionary as ToFunction.regroup_add does *)
Lemma radd_cons k' l D kv :
  radd ((k', l) :: D) kv = if String.eqb k' (fst kv) then (k', l ++ [snd kv]) :: D else (k', l) :: radd D kv.
Proof. unfold radd. cbn. destruct (String.eqb k' (fst kv)); [|destruct (d_mem D (fst kv))]; reflexivity. Qed.
End Loops.

(* regrouping with lists of vectors, then stacking = ToFunction.regroup (which concatenates at once) *)
Definition cv {T} (e : string * list (list T)) : string * list T := (fst e, List.concat (snd e)).

Lemma radd_regroup {T} (D : list (string * list (list T))) k (v : list T) :
  map cv (radd D (k, v)) = regroup_add k v (map cv D).
Proof.
  induction D as [|[k' l] D IH].
  - unfold radd, cv; cbn. rewrite app_nil_r. reflexivity.
  - rewrite radd_cons. cbn [fst snd map regroup_add cv]. destruct (String.eqb k' k); cbn [map].
    + unfold cv at 1. cbn [fst snd]. rewrite concat_app. cbn. rewrite app_nil_r. reflexivity.
    + rewrite IH. reflexivity.
Qed.

Lemma fold_radd_regroup {T} (kvs : list (string * list T)) : forall D,
  map cv (fold_left radd kvs D) = fold_left (fun acc kv => regroup_add (fst kv) (snd kv) acc) kvs (map cv D).
Proof.
  induction kvs as [|[k v] kvs IH]; intros D; cbn [fold_left]; [reflexivity|].
  rewrite IH, radd_regroup. reflexivity.
Qed.

Lemma map_cv_is_generated_stack {T} (D : list (string * list (list T))) :
  map (fun '(varname, list_of_vars) => (varname, List.concat list_of_vars)) D = map cv D.
Proof. apply map_ext. intros [k l]; reflexivity. Qed.

(* a nest of loops whose inner body is radd on the items h hands it: regroup of all those items *)
Lemma group_loop_gen {X T} (body : list (string * list (list T)) -> X -> list (string * list (list T)))
      (h : X -> list (string * list T)) (xs : list X) :
  (forall D it, body D it = fold_left radd (h it) D) ->
  map cv (fold_left body xs []) = regroup (flat_map h xs).
Proof.
  intros Hb. unfold regroup. rewrite (fold_left_ext _ _ Hb), fold_left_flat_map. apply (fold_radd_regroup _ []).
Qed.

Lemma group_loop {E T} (x : list (E * list (string * list T))) :
  map cv (fold_left (fun st_ it_ => let states := st_ in let '(el, vars) := it_ in
            let states := fold_left (fun st_ it_ => let states := st_ in let '(varname, var) := it_ in
              if d_mem states varname
              then (let states := d_set states varname (d_get states varname ++ [var])%list in states)
              else (let states := d_set states varname ([var]) in states)) vars states in
            states) x [])
  = regroup (flat_map snd x).
Proof. apply group_loop_gen. intros D [el vars]. apply fold_left_ext. intros D' [k v]. reflexivity. Qed.

Lemma level0_loop {E T} (suffix : E -> string) (x : list (E * list (string * list T))) n a :
  fold_left (fun st_ it_ => let '(names, args) := st_ in let '(el, vars) := it_ in
    let '(names, args) := fold_left (fun st_ it_ => let '(names, args) := st_ in let '(varname, var) := it_ in
        (names ++ [(varname ++ "_" ++ suffix el)%string], args ++ [var])) vars (names, args) in
    (names, args)) x (n, a)
  = (n ++ map fst (lay0_in suffix x), a ++ map snd (lay0_in suffix x)).
Proof.
  unfold lay0_in. apply fold_pairs. intros n' a' [el vars].
  rewrite (fold_pairs (fun kv => [((fst kv ++ "_" ++ suffix el)%string, snd kv)])) by (intros n'' a'' [vn v]; reflexivity).
  rewrite flat_map_single. reflexivity.
Qed.

Lemma names_loop {X T} (name : X -> string) (val : X -> T) l n a :
  fold_left (fun st_ it_ => let '(names, vals) := st_ in (names ++ [name it_], vals ++ [val it_])) l (n, a)
  = (n ++ map fst (map (fun x => (name x, val x)) l), a ++ map snd (map (fun x => (name x, val x)) l)).
Proof. rewrite <- (flat_map_single (fun x => (name x, val x))). apply fold_pairs. reflexivity. Qed.

Section Generic.
Context {E T : Type}.
Variable ename : E -> string.

Lemma gather_inputs_generic x u d c :
  gen_gather_inputs ename (@List.concat T) x u d c
  = (map fst (lay_inputs ename x u d c), map snd (lay_inputs ename x u d c)).
Proof.
  unfold gen_gather_inputs, lay_inputs, zlevel. case (c <=? 0)%Z.
  - rewrite 3 (level0_loop ename), <- !app_assoc, <- !map_app. reflexivity.
  - (* stacking then group_loop as one equation, its lets reduced as unfold has reduced those of the goal: rewrite then
       finds the loops by syntactic matching *)
    pose proof (fun x => eq_trans (map_cv_is_generated_stack _) (@group_loop E T x)) as G. cbv zeta in G.
    rewrite (G x), (G u), (G d). case (c =? 1)%Z; [rewrite <- !map_app|]; reflexivity.
Qed.

Lemma add_parameters_generic n a (ps : list (string * list T)) c :
  gen_add_parameters_to_inputs (@List.concat T) n a ps c
  = (n ++ map fst (if (c <=? 0)%Z then ps else [("p"%string, List.concat (map snd ps))]),
     a ++ map snd (if (c <=? 0)%Z then ps else [("p"%string, List.concat (map snd ps))])).
Proof. unfold gen_add_parameters_to_inputs. destruct (c <=? 0)%Z; reflexivity. Qed.

(* to_function's `if parameters:` around that helper: the declared parameters, if any, trail the layout so far *)
Lemma parameters_if_any (l ps : list (string * list T)) c :
  (if negb (isnil_ ps) then gen_add_parameters_to_inputs (@List.concat T) (map fst l) (map snd l) ps c
   else (map fst l, map snd l))
  = (map fst (l ++ lay_params ps c), map snd (l ++ lay_params ps c)).
Proof.
  destruct ps as [|p ps]; cbn [isnil_ negb lay_params].
  - rewrite app_nil_r. reflexivity.
  - rewrite add_parameters_generic, !map_app. reflexivity.
Qed.

Lemma gather_outputs_generic x c :
  gen_gather_outputs ename (@List.concat T) x c
  = (map fst (lay_outputs ename x c), map snd (lay_outputs ename x c)).
Proof.
  unfold gen_gather_outputs, lay_outputs, zlevel. case (c <=? 0)%Z.
  - rewrite (level0_loop (fun el => ename el ++ "+")%string). reflexivity.
  - (* the inner loop is radd on the items renamed with a trailing "+" *)
    rewrite map_cv_is_generated_stack, fold_left_map,
      (group_loop_gen _ (fun it => map (fun kv => ((fst kv ++ "+")%string, snd kv)) (snd it))).
    + case (c =? 1)%Z; reflexivity.
    + intros D [el vars]. cbn [snd]. rewrite fold_left_map. apply fold_left_ext. intros D' [k v]. reflexivity.
Qed.

End Generic.

(* the flow helper tests `compact` against 0 and 1: the same tests on its documented level *)
Lemma level_tests c : (0 <? c)%Z = (0 <? zlevel c)%nat /\ (1 <? c)%Z = (1 <? zlevel c)%nat.
Proof. unfold zlevel. destruct (c <=? 0)%Z eqn:E0; [|destruct (c =? 1)%Z eqn:E1]; cbn; lia. Qed.

(* in particular the IndexError branch (level <= 0 and > 1) is never taken *)
Lemma add_flows_generic {L O T} (lname : L -> string) (oname : O -> string) links origins (lf : L -> list T) (qf : O -> list T)
      n a pars c :
  gen_add_flows_to_outputs lname oname (@List.concat T) links origins lf qf n a pars c
  = let fl := flow_layout (zlevel c) (map (fun m => (("q_" ++ lname m)%string, lf m)) links)
                                     (map (fun o => (("q_o_" ++ oname o)%string, qf o)) origins) in
    Some (n ++ map fst fl, a ++ map snd fl).
Proof.
  unfold gen_add_flows_to_outputs. destruct (level_tests c) as [-> ->].
  rewrite (names_loop (fun m => ("q_" ++ lname m)%string) lf), (names_loop (fun o => ("q_o_" ++ oname o)%string) qf).
  destruct (zlevel c) as [|[|]]; cbn [Nat.ltb Nat.leb flow_layout map fst snd List.concat app].
  - rewrite !map_app. reflexivity.
  - reflexivity.
  - rewrite !app_nil_r. reflexivity.
Qed.

Theorem to_function_layout_is_the_regenerated_code_proof : to_function_layout_is_the_regenerated_code.
Proof.
  intros E L O T ename lname oname links origins lf qf x u d nxt c more_out ps.
  unfold gen_to_function.
  rewrite 4 map_pair_id, gather_inputs_generic, gather_outputs_generic, parameters_if_any.
  destruct more_out.
  - rewrite add_flows_generic. cbv zeta. rewrite <- 2 map_app, 2 combine_fst_snd. reflexivity.
  - rewrite app_nil_r, 2 combine_fst_snd. reflexivity.
Qed.

Section Inputs.
Variable nm : names.
Variable U : universe.
Variable g : graph.

Definition Fi (el : elem) (kv : string * list ident) : list (string * list ident) :=
  [((fst kv ++ "_" ++ elem_name nm el)%string, snd kv)].
Definition Fo (it : elem * list (string * list ident)) : list (string * list ident) :=
  flat_map (Fi (fst it)) (snd it).

Lemma level0_body n a (it : elem * list (string * list ident)) body :
  (forall el n a kv, body el (n, a) kv = (n ++ map fst (Fi el kv), a ++ map snd (Fi el kv))) ->
  fold_left (body (fst it)) (snd it) (n, a) = (n ++ map fst (Fo it), a ++ map snd (Fo it)).
Proof. intros H. unfold Fo. apply fold_pairs. apply H. Qed.

Lemma dd_kvs gr : kv_in (dd_of U g gr) = map (fun x => (snd (fst x), snd x)) (group_entries U g gr).
Proof.
  unfold kv_in, dd_of, group_entries. rewrite flat_map_map, map_flat_map. apply flat_map_ext. intros el. cbn [snd].
  rewrite map_map. reflexivity.
Qed.
Lemma dd_l0 gr :
  lay0_in (elem_name nm) (dd_of U g gr)
  = map (fun x => ((snd (fst x) ++ "_" ++ elem_name nm (fst (fst x)))%string, snd x)) (group_entries U g gr).
Proof.
  unfold lay0_in, dd_of, group_entries. rewrite flat_map_map, map_flat_map. apply flat_map_ext. intros el.
  cbn [fst snd]. rewrite !map_map. reflexivity.
Qed.
End Inputs.

(* net.next_states handed to an item-by-item layout whose names are h element key: the same names on next_entries *)
Lemma next_layout {A K} (h : elem -> string -> K) (out : step_out (A:=A)) :
  flat_map (fun it => map (fun kv => (h (fst it) (fst kv), snd kv)) (snd it)) (next_dd out)
  = map (fun x => (h (fst (fst x)) (snd (fst x)), snd x)) (next_entries out).
Proof.
  unfold next_dd, next_entries. rewrite flat_map_app, map_app. apply f_equal2.
  - rewrite flat_map_map, map_flat_map. reflexivity.
  - rewrite flat_map_flat_map, map_flat_map. apply flat_map_ext. intros [o [w|]]; reflexivity.
Qed.

Theorem model_layouts_are_the_generic_ones_proof : model_layouts_are_the_generic_ones.
Proof.
  split.
  - intros nm U g c ps. unfold lay_inputs, tf_inputs. apply f_equal2.
    + destruct (zlevel c) as [|[|]].
      * rewrite !dd_l0. unfold inputs_level0. cbn [flat_map]. rewrite app_nil_r. reflexivity.
      * rewrite !dd_kvs. unfold inputs_level1. cbn [flat_map]. rewrite app_nil_r. reflexivity.
      * rewrite !dd_kvs. reflexivity.
    + destruct ps as [|p ps]; [reflexivity|]. unfold zlevel. cbn [map lay_params param_inputs].
      destruct (c <=? 0)%Z; [reflexivity|]. cbn [List.concat snd app].
      rewrite (flat_singletons fst snd ps : List.concat _ = _). destruct (c =? 1)%Z; reflexivity.
  - intros A nm out c. unfold lay_outputs, state_outputs, outputs_level2, outputs_level1.
    destruct (zlevel c) as [|[|]]; [apply (next_layout (fun el k => k ++ "_" ++ elem_name nm el ++ "+")%string)|
      unfold kv_out; rewrite (next_layout (fun _ k => k ++ "+")%string); reflexivity..].
Qed.

Theorem inputs_layout_is_the_regenerated_code_proof : inputs_layout_is_the_regenerated_code.
Proof.
  intros nm U g c ps. rewrite gather_inputs_generic, <- (proj1 model_layouts_are_the_generic_ones_proof).
  destruct ps as [|p ps]; cbn [map lay_params].
  - rewrite app_nil_r, combine_fst_snd. split; [reflexivity|apply len_fst_snd].
  - rewrite add_parameters_generic, <- !map_app, combine_fst_snd. split; [reflexivity|apply len_fst_snd].
Qed.

Theorem outputs_layout_is_the_regenerated_code_proof : outputs_layout_is_the_regenerated_code.
Proof.
  intros A nm out c. rewrite gather_outputs_generic, (proj2 model_layouts_are_the_generic_ones_proof), combine_fst_snd.
  split; [reflexivity|apply len_fst_snd].
Qed.

Theorem flows_layout_is_the_regenerated_code_proof : flows_layout_is_the_regenerated_code.
Proof.
  intros A nm lids oids lf qf names0 args0 pars c Hlen. rewrite add_flows_generic. cbv zeta.
  eexists _, _. split; [reflexivity|]. split.
  - rewrite !app_length, Hlen, len_fst_snd. reflexivity.
  - rewrite combine_app_eq by exact Hlen. rewrite combine_fst_snd. reflexivity.
Qed.

Theorem model_flow_outputs_use_flow_layout_proof : model_flow_outputs_use_flow_layout.
Proof. intros E nm U P g opts compact. reflexivity. Qed.
