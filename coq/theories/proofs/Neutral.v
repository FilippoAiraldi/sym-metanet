From Coq Require Import Reals Lia Lra String.
From SM Require Import NumR Graph Engine Types Blocks Spec.
From SM.gen Require Import EnginesNp EnginesCs.
From SM.specs Require Import C18_spec.
From SM.proofs Require Import VecR PrimR EnginesEq BlocksFacts.
From Coq Require Import List.
Import ListNotations.
Local Open Scope R_scope.

Lemma index_of_nth_NoDup vsl k : NoDup vsl -> (k < length vsl)%nat -> index_of (nth k vsl O) vsl = Some k.
Proof.
  revert k; induction vsl as [|x vsl IH]; intros k Hnd Hk; [simpl in Hk; lia|].
  inversion Hnd as [|? ? Hnin Hnd']; subst. destruct k as [|k]; simpl.
  - rewrite Nat.eqb_refl. reflexivity.
  - destruct (Nat.eqb_spec x (nth k vsl O)) as [E|NE].
    + exfalso. apply Hnin. rewrite E. apply nth_In. simpl in Hk. lia.
    + rewrite IH by (simpl in Hk; auto; lia). reflexivity.
Qed.

Theorem np_neutral_limits : neutral_limits_are_plain (@Np.links_Veq R NumR) (@Np.links_controlled_Veq R NumR).
Proof.
  intros rho vc vsl al vf rc a (Hnd & Hlt & Hlen). remember (length rho) as n eqn:Hn.
  rewrite (tab_nth rho n 0 (eq_sym Hn)), np_cVeq_tab, np_Veq_tab by assumption.
  intros Hneu. apply tab_ext. intros i Hi.
  destruct (index_of i vsl) as [k|] eqn:E; [|reflexivity].
  destruct (index_of_Some_lt _ _ _ E) as [Hk Hik].
  specialize (Hneu k Hk). rewrite Hik, nth_tab in Hneu by exact Hi. apply Rmin_left. exact Hneu.
Qed.

Theorem np_limits_only_lower : limits_only_lower (@Np.links_Veq R NumR) (@Np.links_controlled_Veq R NumR).
Proof.
  intros rho vc vsl al vf rc a i (Hnd & Hlt & Hlen) Hi. rewrite (tab_nth rho _ 0 eq_refl).
  rewrite np_cVeq_tab, np_Veq_tab, !nth_tab by assumption. split.
  - destruct (index_of i vsl); [apply Rmin_l|lra].
  - intros Hnin. apply index_of_None in Hnin. rewrite Hnin. reflexivity.
Qed.

Theorem np_speed_monotone : speed_update_monotone (@Np.links_step_speed R NumR).
Proof.
  intros v vu r rd V V' lanes L tau eta kappa T qr de ld ph rc i HT Hi H1 H2 H3 H4 H4' HV.
  rewrite (tab_nth v _ 0 eq_refl), (tab_nth vu _ 0 H1), (tab_nth r _ 0 H2), (tab_nth rd _ 0 H3),
    (tab_nth V _ 0 H4), (tab_nth V' _ 0 H4').
  apply np_step_speed_tab_mono; assumption.
Qed.

Theorem np_rate_one : rate_one_variants_coincide (@Np.origins_get_ramp_flow R NumR).
Proof.
  intros d w C rmax r1 rc T. rewrite !np_ramp_eq. cbn [String.eqb Ascii.eqb Bool.eqb]. ring.
Qed.

Theorem np_unbounded_qdes :
  unbounded_desired_flow_is_rate_one (@Np.origins_get_ramp_flow R NumR)
                                     (@Np.origins_get_simplifiedramp_flow R NumR).
Proof.
  intros qdes d w C rmax r1 rc T. rewrite np_ramp_eq, np_simp_eq. cbn [String.eqb Ascii.eqb Bool.eqb].
  rewrite Rmult_1_l. intros H. apply Rmin_right. exact H.
Qed.

Theorem np_main_neutral : mainstream_limit_neutral (@Np.origins_get_mainstream_flow R NumR).
Proof.
  intros d w vctrl v1 rc a vf lanes T H. rewrite !np_main_eq.
  rewrite (Rmin_right vctrl v1) by exact H. rewrite (Rmin_left v1 v1) by lra. reflexivity.
Qed.

Theorem np_neutral_controls :
  neutral_controls (@Np.links_Veq R NumR) (@Np.links_controlled_Veq R NumR) (@Np.links_step_speed R NumR)
                   (@Np.origins_get_ramp_flow R NumR) (@Np.origins_get_simplifiedramp_flow R NumR)
                   (@Np.origins_get_mainstream_flow R NumR).
Proof.
  unfold neutral_controls.
  exact (conj np_neutral_limits (conj np_limits_only_lower (conj np_speed_monotone
          (conj np_rate_one (conj np_unbounded_qdes np_main_neutral))))).
Qed.

Local Notation E := (@np_engine R NumR).

Theorem np_plain_link : plain_link_uses_Veq E.
Proof. intros U P g st m H. unfold link_raw, link_Veq. rewrite H. reflexivity. Qed.

Theorem np_neutral_link : neutral_link_steps_like_plain E.
Proof.
  intros U P g st m vsl Hv Hok Hneu. unfold link_raw, link_Veq. rewrite Hv.
  cbn [e_cVeq e_Veq np_engine] in *. rewrite (np_neutral_limits _ _ _ _ _ _ _ Hok Hneu). reflexivity.
Qed.

(* [injection] would normalise the two components it returns *)
Lemma Ok_pair {T V} (p : T * V) a b : Ok p = Ok (a, b) -> a = fst p /\ b = snd p.
Proof. intros [= ->]. split; reflexivity. Qed.

Theorem np_limited_never_faster : limited_link_never_faster E.
Proof.
  intros U P g st m vsl r v r0 v0 Hv (Hnd & Hlt & Hlen) HT Lv LN H1.
  unfold link_raw, link_Veq. rewrite Hv, !link_raw_V_eq.
  destruct (nodes_of_link g m) as [ud|]; [|discriminate]. cbn [bind].
  destruct (node_up_speed_flow E U P g st (fst ud) m) as [vq0|]; [|discriminate]. cbn [bind].
  destruct (node_down_density E U P g st (snd ud)) as [rN|]; [|discriminate]. cbn [bind].
  destruct (merging_ramp_flow E U P g st (fst ud)) as [qr|]; [|discriminate]. cbn [bind].
  intros [-> ->]%Ok_pair [-> ->]%Ok_pair. split; [reflexivity|]. intros i Hi.
  unfold link_update. cbn [fst snd e_step_v e_cVeq e_Veq e_vcat np_engine]. rewrite LN.
  set (n := length (s_rho st m)) in *. rewrite (tab_nth (s_rho st m) n 0 eq_refl), (tab_nth (s_v st m) n 0 Lv).
  rewrite np_cVeq_tab, np_Veq_tab, !np_shift_up_tab, !np_shift_down_tab by assumption.
  apply np_step_speed_tab_mono; [exact HT|exact Hi|]. destruct (index_of i vsl); [apply Rmin_l|lra].
Qed.
