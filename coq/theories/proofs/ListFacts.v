(* ListFacts.v - facts about lists, folds and keyed lists (insertion-ordered dictionaries) that several proofs share. *)
From Coq Require Import List PeanoNat Permutation.
Import ListNotations.

Lemma length_le_1 {T} (l : list T) : length l <= 1 -> l = [] \/ exists x, l = [x].
Proof. destruct l as [|x [|y l]]; simpl; intros H; [auto|eauto|]. apply le_S_n in H. inversion H. Qed.

Lemma existsb_eqb {T} (eqb : T -> T -> bool) : (forall a b, eqb a b = true <-> a = b) ->
  forall x l, existsb (eqb x) l = true <-> In x l.
Proof.
  intros E x l. rewrite existsb_exists. split; [|intros H; exists x; split; [exact H|apply E; reflexivity]].
  intros (y & Hy & Exy). apply E in Exy. subst y. exact Hy.
Qed.

Lemma app_eq_nil_iff {T} (a b : list T) : a ++ b = [] <-> a = [] /\ b = [].
Proof. split; [apply app_eq_nil|intros [-> ->]; reflexivity]. Qed.

Lemma flat_map_eq_nil {T V} (f : T -> list V) l : flat_map f l = [] <-> forall x, In x l -> f x = [].
Proof.
  induction l as [|a l IH]; simpl.
  - split; [intros _ x []|reflexivity].
  - rewrite app_eq_nil_iff, IH. split.
    + intros [Ha Hl] x [<-|Hx]; auto.
    + intros H. split; [|intros x Hx]; apply H; auto.
Qed.

Lemma NoDup_app_iff {T} (a b : list T) :
  NoDup (a ++ b) <-> NoDup a /\ NoDup b /\ forall x, In x a -> ~ In x b.
Proof.
  induction a as [|y a IH]; simpl.
  - split; [intros H; repeat split; [constructor|exact H|intros x []]|intros (_ & H & _); exact H].
  - rewrite !NoDup_cons_iff, IH, in_app_iff. split.
    + intros (Hy & Ha & Hb & Hd). repeat split; auto. intros x [<-|Hx]; auto.
    + intros ((Hy & Ha) & Hb & Hd). repeat split; auto. intros [H|H]; [auto|]. apply (Hd y); auto.
Qed.

Lemma NoDup_snoc {T} (l : list T) x : NoDup l -> ~ In x l -> NoDup (l ++ [x]).
Proof.
  intros Hl Hx. apply (Permutation_NoDup (Permutation_cons_append l x)). constructor; assumption.
Qed.

Lemma NoDup_map_inj_on {T V} (f : T -> V) l :
  (forall a b, In a l -> In b l -> f a = f b -> a = b) -> NoDup l -> NoDup (map f l).
Proof.
  intros Hf Hl. induction Hl as [|x l Hx Hl IH]; simpl; constructor.
  - intros Hin. apply in_map_iff in Hin. destruct Hin as (y & E & Hy).
    apply Hf in E; [subst; contradiction|right; exact Hy|left; reflexivity].
  - apply IH. intros a b Ha Hb. apply Hf; right; assumption.
Qed.

Lemma NoDup_flat_map_inj {T V} (f : T -> list V) l a b x :
  NoDup (flat_map f l) -> In a l -> In b l -> In x (f a) -> In x (f b) -> a = b.
Proof.
  induction l as [|y l IH]; simpl; [intros _ []|]. rewrite NoDup_app_iff. intros (_ & Hl & Hd).
  assert (Hcross : forall c, In c l -> In x (f y) -> In x (f c) -> False).
  { intros c Hc H1 H2. apply (Hd x H1). apply in_flat_map. exists c. auto. }
  intros [->|Ha] [->|Hb] Hxa Hxb; auto; exfalso; eauto.
Qed.

Lemma flat_map_map {X Y Z} (h : X -> Y) (F : Y -> list Z) l : flat_map F (map h l) = flat_map (fun x => F (h x)) l.
Proof. induction l as [|x l IH]; cbn; [reflexivity|rewrite IH; reflexivity]. Qed.
Lemma map_flat_map {X Y Z} (h : Y -> Z) (F : X -> list Y) l : map h (flat_map F l) = flat_map (fun x => map h (F x)) l.
Proof. induction l as [|x l IH]; cbn; [reflexivity|rewrite map_app, IH; reflexivity]. Qed.
Lemma flat_map_flat_map {X Y Z} (h : Y -> list Z) (F : X -> list Y) l :
  flat_map h (flat_map F l) = flat_map (fun x => flat_map h (F x)) l.
Proof. induction l as [|x l IH]; cbn; [reflexivity|rewrite flat_map_app, IH; reflexivity]. Qed.
Lemma flat_map_single {X Y} (f : X -> Y) l : flat_map (fun x => [f x]) l = map f l.
Proof. induction l as [|x l IH]; cbn; [reflexivity|rewrite IH; reflexivity]. Qed.

(* a fact about every row of a table, read off one equation between two of its columns (which evaluation can decide) *)
Lemma table_eq {K T V} (t : list (K * T)) (f : T -> V) (h : K -> V) :
  map (fun r => f (snd r)) t = map (fun r => h (fst r)) t -> forall k x, In (k, x) t -> f x = h k.
Proof. intros H k x Hin. exact (ext_in_map H (k, x) Hin). Qed.

Lemma find_app {T} (f : T -> bool) a b :
  find f (a ++ b) = match find f a with Some x => Some x | None => find f b end.
Proof. induction a as [|x a IH]; simpl; [reflexivity|]. destruct (f x); [reflexivity|exact IH]. Qed.

Lemma option_ext {T} (a b : option T) : (forall x, a = Some x <-> b = Some x) -> a = b.
Proof.
  intros H. destruct a as [x|], b as [y|]; try reflexivity.
  - symmetry. apply H. reflexivity.
  - symmetry. apply H. reflexivity.
  - apply H. reflexivity.
Qed.

Lemma filter_perm {T} (f : T -> bool) l l' : Permutation l l' -> Permutation (filter f l) (filter f l').
Proof.
  induction 1 as [|x l l' H IH|x y l|l l' l'' H1 IH1 H2 IH2]; simpl.
  - constructor.
  - destruct (f x); [constructor|]; exact IH.
  - destruct (f x), (f y); try apply Permutation_refl. apply perm_swap.
  - eapply Permutation_trans; eauto.
Qed.

Lemma fold_left_ext {A B} (f h : A -> B -> A) : (forall a b, f a b = h a b) -> forall l a, fold_left f l a = fold_left h l a.
Proof. intros E l; induction l as [|b l IH]; intros a; cbn; [reflexivity|]. rewrite E; apply IH. Qed.
Lemma fold_left_map {A B C} (f : A -> C -> A) (h : B -> C) l a :
  fold_left f (map h l) a = fold_left (fun a b => f a (h b)) l a.
Proof. revert a; induction l as [|b l IH]; intros a; cbn; [reflexivity|apply IH]. Qed.
Lemma fold_left_flat_map {A B C} (f : A -> C -> A) (h : B -> list C) l a :
  fold_left (fun a it => fold_left f (h it) a) l a = fold_left f (flat_map h l) a.
Proof. revert a; induction l as [|b l IH]; intros a; cbn; [reflexivity|]. rewrite fold_left_app. apply IH. Qed.
Lemma fold_left_inv {A B} (I : A -> Prop) (f : A -> B -> A) l :
  (forall a b, In b l -> I a -> I (f a b)) -> forall a, I a -> I (fold_left f l a).
Proof.
  induction l as [|b l IH]; intros H a Ha; [exact Ha|]. apply IH; [intros a' b' Hb'; apply H; right; exact Hb'|].
  apply H; [left; reflexivity|exact Ha].
Qed.
Lemma fold_left_fixed {A B} (f : A -> B -> A) l a : (forall b, f a b = a) -> fold_left f l a = a.
Proof. intros H. induction l as [|b l IH]; cbn; [reflexivity|]. rewrite H. exact IH. Qed.
Lemma fold_left_Forall {A B} (I : A -> Prop) (P : B -> Prop) (f : A -> B -> A) l :
  (forall a b, P b -> I a -> I (f a b)) -> Forall P l -> forall a, I a -> I (fold_left f l a).
Proof. intros H Hl. apply fold_left_inv. intros a b Hb. apply H. exact (proj1 (Forall_forall P l) Hl b Hb). Qed.

(* A left fold of updates each of which writes one place only (get (f s a) e = get s e for e <> a): every place named
   in the list ends with whatever its own update establishes (Q), given a state invariant J the updates keep. *)
Lemma fold_left_point {S X} (f : S -> nat -> S) (get : S -> nat -> X) (J : S -> Prop) (Q : nat -> X -> Prop) :
  (forall s a, J s -> J (f s a)) ->
  (forall s a e, e <> a -> get (f s a) e = get s e) ->
  (forall s a, J s -> Q a (get (f s a) a)) ->
  forall l s, J s -> J (fold_left f l s) /\ forall e, In e l -> Q e (get (fold_left f l s) e).
Proof.
  intros HJ Hloc Hset l. induction l as [|a l IH] using rev_ind; intros s Hs; [split; [exact Hs|intros e []]|].
  rewrite fold_left_app. simpl. destruct (IH s Hs) as [Js Qs]. split; [apply HJ, Js|]. intros e He.
  destruct (Nat.eq_dec e a) as [->|Hne]; [apply Hset, Js|]. rewrite Hloc by exact Hne. apply Qs.
  apply in_app_or in He. destruct He as [He|[->|[]]]; [exact He|contradiction].
Qed.

Lemma Forall2_In_r {T V} (Q : T -> V -> Prop) l l' y : Forall2 Q l l' -> In y l' -> exists x, In x l /\ Q x y.
Proof.
  induction 1 as [|a b l l' Hab _ IH]; intros Hy; [destruct Hy|].
  destruct Hy as [<-|Hy]; [exists a; split; [left; reflexivity|exact Hab]|].
  destruct (IH Hy) as (x & Hx & Hq). exists x. split; [right; exact Hx|exact Hq].
Qed.
Lemma Forall2_combine_In {T V} {Q : T -> V -> Prop} {l l' x y} :
  Forall2 Q l l' -> In (x, y) (combine l l') -> Q x y.
Proof.
  induction 1 as [|a b l l' Hab HF IH]; simpl; [tauto|].
  intros [H|H]; [inversion H; subst; exact Hab|apply IH; exact H].
Qed.
Lemma Forall2_map_eq {T V W} (Q : T -> V -> Prop) (f : T -> W) (h : V -> W) l l' :
  Forall2 Q l l' -> (forall x y, Q x y -> h y = f x) -> map h l' = map f l.
Proof.
  intros F HQ. induction F as [|a b l l' Hab _ IH]; cbn [map]; [reflexivity|]. rewrite (HQ _ _ Hab), IH. reflexivity.
Qed.
Lemma Forall2_flat_map {X Y Z} (Q : X -> Y -> Prop) (F : X -> list Z) (G : Y -> list Z) l l' :
  Forall2 Q l l' -> (forall x y, In x l -> Q x y -> G y = F x) -> flat_map G l' = flat_map F l.
Proof.
  induction 1 as [|x y l l' Hxy _ IH]; intros H; [reflexivity|]. cbn [flat_map].
  rewrite (H x y (or_introl eq_refl) Hxy), IH by (intros x' y' Hx'; apply H; right; exact Hx'). reflexivity.
Qed.
Lemma Forall2_join {X Y Z} {Q1 : X -> Y -> Prop} {Q2 : X -> Z -> Prop} (S : Y -> Z -> Prop) {l r1 r2} :
  Forall2 Q1 l r1 -> Forall2 Q2 l r2 -> (forall x a b, In x l -> Q1 x a -> Q2 x b -> S a b) -> Forall2 S r1 r2.
Proof.
  intros F1. revert r2. induction F1 as [|x a l r1 Ha F1 IH]; intros r2 F2 H; inversion F2; subst; constructor.
  - apply (H x); [left; reflexivity|assumption..].
  - apply IH; [assumption|]. intros x' a' b' Hx'. apply H. right. exact Hx'.
Qed.

(* insertion-ordered lists with unique keys: networkx's node and adjacency dictionaries.  kput is
   "d[k] = f(d[k]) if k in d else new": an existing entry is updated in place, a new one goes last. *)
Section Keyed.
Context {T K : Type} (key : T -> K) (keq : K -> K -> bool).
Hypothesis keq_eq : forall a b, keq a b = true <-> a = b.

Definition kfind (l : list T) (k : K) : option T := find (fun c => keq (key c) k) l.
Definition kmem (l : list T) (k : K) : bool := existsb (fun c => keq (key c) k) l.
Definition kput (f : T -> T) (new : T) (k : K) (l : list T) : list T :=
  if kmem l k then map (fun c => if keq (key c) k then f c else c) l else l ++ [new].

Lemma keq_refl k : keq k k = true.
Proof. apply keq_eq. reflexivity. Qed.

Lemma kmem_In l k : kmem l k = true <-> In k (map key l).
Proof.
  unfold kmem. rewrite existsb_exists, in_map_iff. split; intros (c & A & B); exists c.
  - apply keq_eq in B. auto.
  - subst k. auto using keq_refl.
Qed.

Lemma kfind_Some l k c : kfind l k = Some c -> In c l /\ key c = k.
Proof. intros H. apply find_some in H. rewrite keq_eq in H. exact H. Qed.

Lemma kfind_None l k : kfind l k = None <-> kmem l k = false.
Proof.
  unfold kfind, kmem. induction l as [|a l IH]; simpl; [split; reflexivity|]. destruct (keq (key a) k); simpl; [split; discriminate|exact IH].
Qed.

Lemma kfind_iff l k c : NoDup (map key l) -> (kfind l k = Some c <-> In c l /\ key c = k).
Proof.
  intros Hnd. split; [apply kfind_Some|]. intros [Hc <-]. destruct (kfind l (key c)) as [y|] eqn:F.
  - apply kfind_Some in F. destruct F as [Hy E]. apply f_equal. rewrite <- flat_map_single in Hnd.
    apply (NoDup_flat_map_inj _ l y c (key c) Hnd Hy Hc); left; [exact E|reflexivity].
  - apply kfind_None in F. rewrite (proj2 (kmem_In l (key c)) (in_map key l c Hc)) in F. discriminate.
Qed.

Lemma kfind_app l l' k : kfind (l ++ l') k = match kfind l k with Some c => Some c | None => kfind l' k end.
Proof. apply find_app. Qed.

Lemma kfind_map g l k : (forall c, key (g c) = key c) -> kfind (map g l) k = option_map g (kfind l k).
Proof. intros Hg. unfold kfind. induction l as [|a l IH]; simpl; [reflexivity|]. rewrite Hg. destruct (keq (key a) k); auto. Qed.

Variables (f : T -> T) (new : T) (k : K).
Hypothesis f_key : forall c, key c = k -> key (f c) = k.
Hypothesis new_key : key new = k.

Lemma upd_key c : key (if keq (key c) k then f c else c) = key c.
Proof. destruct (keq (key c) k) eqn:E; [|reflexivity]. apply keq_eq in E. rewrite E. auto. Qed.

Lemma kfind_kput l k' :
  kfind (kput f new k l) k' = if keq k' k then Some match kfind l k with Some c => f c | None => new end else kfind l k'.
Proof.
  unfold kput. destruct (kmem l k) eqn:M.
  - rewrite kfind_map by exact upd_key.
    destruct (keq k' k) eqn:E.
    + apply keq_eq in E. subst k'. destruct (kfind l k) as [c|] eqn:F; [|apply kfind_None in F; congruence].
      simpl. rewrite (proj2 (kfind_Some _ _ _ F)), keq_refl. reflexivity.
    + destruct (kfind l k') as [c|] eqn:F; [|reflexivity]. simpl. rewrite (proj2 (kfind_Some _ _ _ F)), E. reflexivity.
  - rewrite kfind_app. apply kfind_None in M. destruct (keq k' k) eqn:E.
    + apply keq_eq in E. subst k'. rewrite M. unfold kfind. simpl. rewrite new_key, keq_refl. reflexivity.
    + destruct (kfind l k'); [reflexivity|]. unfold kfind. simpl. rewrite new_key.
      destruct (keq k k') eqn:E'; [|reflexivity]. apply keq_eq in E'. subst k'. rewrite keq_refl in E. discriminate.
Qed.

Lemma keys_kput l : map key (kput f new k l) = if kmem l k then map key l else map key l ++ [k].
Proof.
  unfold kput. destruct (kmem l k).
  - rewrite map_map. apply map_ext. exact upd_key.
  - rewrite map_app. simpl. rewrite new_key. reflexivity.
Qed.
Lemma In_keys_kput l k' : In k' (map key (kput f new k l)) <-> k' = k \/ In k' (map key l).
Proof.
  rewrite keys_kput. destruct (kmem l k) eqn:M.
  - apply kmem_In in M. split; [auto|]. intros [->|H]; assumption.
  - rewrite in_app_iff. simpl. split; [intros [H|[<-|[]]]; auto|intros [->|H]; auto].
Qed.
Lemma NoDup_keys_kput l : NoDup (map key l) -> NoDup (map key (kput f new k l)).
Proof.
  intros H. rewrite keys_kput. destruct (kmem l k) eqn:M; [exact H|]. apply NoDup_snoc; [exact H|].
  rewrite <- kmem_In, M. discriminate.
Qed.

Lemma kput_Forall (P : T -> Prop) l :
  P new -> (forall c, P c -> P (f c)) -> (forall c, In c l -> P c) -> forall c, In c (kput f new k l) -> P c.
Proof.
  intros Hn Hf Hl c. unfold kput. destruct (kmem l k).
  - rewrite in_map_iff. intros (a & <- & Ha). destruct (keq (key a) k); auto.
  - rewrite in_app_iff. intros [Hc|[<-|[]]]; auto.
Qed.

Lemma flat_map_kput {V} (h : T -> list V) l :
  (forall c, h (f c) = h c) -> (kmem l k = false -> h new = []) -> flat_map h (kput f new k l) = flat_map h l.
Proof.
  intros Hf Hn. unfold kput. destruct (kmem l k).
  - induction l as [|a l IH]; simpl; [reflexivity|]. rewrite IH. destruct (keq (key a) k); rewrite ?Hf; reflexivity.
  - rewrite flat_map_app. simpl. rewrite Hn, !app_nil_r; reflexivity.
Qed.
End Keyed.
